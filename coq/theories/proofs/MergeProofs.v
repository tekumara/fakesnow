(* fake_target against spec_target (Merge.v). The exploded statements act on every target row by itself and, apart from that,
   on the empty table (run_split). Inside `dom` a target row owns at most one row of merge_candidates (own), the re-join of
   statement w finds that row exactly when w is the index it carries (hit_own), so what the statements do to the target row
   is what its own clause does (run_row_own); and the empty table receives Snowflake's inserts (inserted_rows). *)
From FS Require Import Sexp Merge.
From Coq Require Import Lia.

Lemma flat_map_singleton {X} (l : list X) : flat_map (fun x => [x]) l = l.
Proof. induction l as [|a l IH]; cbn; [reflexivity|]. rewrite IH. reflexivity. Qed.

Lemma flat_map_flat_map {X Y Z} (f : X -> list Y) (g : Y -> list Z) l :
  flat_map g (flat_map f l) = flat_map (fun x => flat_map g (f x)) l.
Proof. induction l as [|a l IH]; cbn; [reflexivity|]. rewrite flat_map_app, IH. reflexivity. Qed.

Lemma flat_map_filter {X Y} (P : X -> bool) (f : X -> list Y) l :
  flat_map (fun x => if P x then f x else []) l = flat_map f (filter P l).
Proof. induction l as [|a l IH]; cbn; [reflexivity|]. rewrite IH. destruct (P a); reflexivity. Qed.

Lemma filter_const {X} (P : X -> bool) b l : (forall x, In x l -> P x = b) -> filter P l = if b then l else [].
Proof.
  induction l as [|a l IH]; intros H; cbn; [destruct b; reflexivity|].
  rewrite (H a) by (left; reflexivity). rewrite IH by (intros x Hx; apply H; right; exact Hx). destruct b; reflexivity.
Qed.

Lemma filter_sole {X} (P : X -> bool) l x : (length (filter P l) <=? 1)%nat = true -> In x l -> P x = true -> filter P l = [x].
Proof.
  intros Hle Hx Px. assert (I : In x (filter P l)) by (apply filter_In; auto).
  destruct (filter P l) as [|a [|b r]]; [destruct I| |discriminate]. destruct I as [->|[]]. reflexivity.
Qed.

(* what statement w (mutate) and the statements from w on (run_clauses) make of ONE row of the table *)
Definition mut_row (m : merge) (cs : list cand) (w : nat) (cl : clause) (t : row) : list row :=
  match cl with
  | MDelete _ => match hit (on m) cs w t with Some _ => [] | None => [t] end
  | MUpdate _ asg => [match hit (on m) cs w t with Some s => apply_asg asg t s | None => t end]
  | NInsert _ _ _ => [t]
  end.

Fixpoint run_row (m : merge) (cs : list cand) (w : nat) (cls : list clause) (t : row) : list row :=
  match cls with
  | [] => [t]
  | cl :: rest => flat_map (run_row m cs (S w) rest) (mut_row m cs w cl t)
  end.

Lemma mutate_split m cs w cl cur : mutate m cs w cl cur = flat_map (mut_row m cs w cl) cur ++ mutate m cs w cl [].
Proof.
  destruct cl as [c asg|c|c cols vals]; unfold mut_row; cbn [mutate map filter app]; rewrite ?app_nil_r.
  - induction cur as [|t cur IH]; cbn; [reflexivity|]. rewrite IH. reflexivity.
  - induction cur as [|t cur IH]; cbn; [reflexivity|]. rewrite IH. destruct (hit (on m) cs w t); reflexivity.
  - rewrite flat_map_singleton. reflexivity.
Qed.

(* running the statements on a table is running them on each of its rows alone, plus what they make of the empty table;
   this needs nothing of the order of the clauses *)
Lemma run_split m cs cls : forall w cur,
  run_clauses m cs w cls cur = flat_map (run_row m cs w cls) cur ++ run_clauses m cs w cls [].
Proof.
  induction cls as [|cl cls IH]; intros w cur; cbn [run_clauses run_row].
  - rewrite flat_map_singleton, app_nil_r. reflexivity.
  - rewrite (IH _ (mutate m cs w cl cur)), (IH _ (mutate m cs w cl [])), (mutate_split m cs w cl cur).
    rewrite flat_map_app, flat_map_flat_map, app_assoc. reflexivity.
Qed.

Lemma run_app_cls m cs c1 : forall c2 w cur,
  run_clauses m cs w (c1 ++ c2) cur = run_clauses m cs (w + length c1) c2 (run_clauses m cs w c1 cur).
Proof.
  induction c1 as [|cl c1 IH]; intros c2 w cur; cbn.
  - rewrite Nat.add_0_r. reflexivity.
  - rewrite IH, Nat.add_succ_comm. reflexivity.
Qed.

Lemma mut_row_nohit m cs w cl t : hit (on m) cs w t = None -> mut_row m cs w cl t = [t].
Proof. intros H. destruct cl; cbn; rewrite ?H; reflexivity. Qed.

Lemma run_row_skip m cs t pre : forall w rest, (forall k, (w <= k < w + length pre)%nat -> hit (on m) cs k t = None) ->
  run_row m cs w (pre ++ rest) t = run_row m cs (w + length pre) rest t.
Proof.
  induction pre as [|cl pre IH]; intros w rest H; cbn [app run_row length].
  - rewrite Nat.add_0_r. reflexivity.
  - rewrite mut_row_nohit by (apply H; cbn; lia). cbn [flat_map]. rewrite app_nil_r, IH, Nat.add_succ_comm; [reflexivity|].
    intros k Hk. apply H. cbn. lia.
Qed.

Lemma run_row_nohit m cs t cls w : (forall k, (w <= k < w + length cls)%nat -> hit (on m) cs k t = None) ->
  run_row m cs w cls t = [t].
Proof. intros H. rewrite <- (app_nil_r cls), run_row_skip by exact H. reflexivity. Qed.

Lemma col_set_nth r : forall i j v, i <> j -> col (set_nth r i v) j = col r j.
Proof.
  unfold col. induction r as [|x r IH]; intros i j v Hij; cbn; [reflexivity|].
  destruct i as [|i]; destruct j as [|j]; cbn; try reflexivity; try congruence.
  apply IH. congruence.
Qed.

Lemma joins_set_nth o r i v s : existsb (fun p => Nat.eqb (fst p) i) o = false -> joins o (set_nth r i v) s = joins o r s.
Proof.
  unfold joins. induction o as [|p o IH]; cbn; intros H; [reflexivity|].
  apply orb_false_iff in H as [H1 H2]. apply Nat.eqb_neq in H1.
  rewrite IH, col_set_nth by auto. reflexivity.
Qed.

Lemma joins_apply_asg o asg : forall t s0 s,
  forallb (fun a => negb (existsb (fun p => Nat.eqb (fst p) (fst a)) o)) asg = true -> joins o (apply_asg asg t s0) s = joins o t s.
Proof.
  unfold apply_asg. induction asg as [|a asg IH]; intros t s0 s H; cbn; [reflexivity|].
  cbn in H. apply andb_true_iff in H as [H1 H2]. apply negb_true_iff in H1.
  rewrite IH by exact H2. apply joins_set_nth. exact H1.
Qed.

Lemma no_key_assign_spec m c asg : no_key_assign m = true -> In (MUpdate c asg) (clauses m) ->
  forall t s0 s, joins (on m) (apply_asg asg t s0) s = joins (on m) t s.
Proof.
  intros H Hin t s0 s. apply joins_apply_asg. unfold no_key_assign in H. rewrite forallb_forall in H. exact (H _ Hin).
Qed.

Lemma hit_ext o cs w r t : (forall s, joins o r s = joins o t s) -> hit o cs w r = hit o cs w t.
Proof.
  intros H. unfold hit. f_equal. induction cs as [|c cs IH]; cbn; [reflexivity|].
  rewrite H, IH. reflexivity.
Qed.

Lemma hit_some o cs w t s : hit o cs w t = Some s -> In (s, w) cs /\ joins o t s = true.
Proof.
  unfold hit. destruct (find _ _) as [[s' w']|] eqn:F; [|discriminate]. intros [= <-].
  apply find_some in F. cbn in F. destruct F as [Hin Hb]. apply andb_true_iff in Hb as [Hw J].
  apply Nat.eqb_eq in Hw. subst w'. auto.
Qed.

Lemma hit_none o cs w t s : hit o cs w t = None -> In (s, w) cs -> joins o t s = false.
Proof.
  unfold hit. destruct (find _ _) eqn:F; [discriminate|]. intros _ Hin.
  apply (find_none _ _ F) in Hin. cbn in Hin. rewrite Nat.eqb_refl in Hin. exact Hin.
Qed.

Lemma first_op_shift kind cls t s : forall w, first_op kind cls (S w) t s = option_map S (first_op kind cls w t s).
Proof.
  induction cls as [|c cls IH]; intros w; cbn; [reflexivity|].
  destruct (Bool.eqb (is_matched c) kind && holds (ccond c) t s); [reflexivity|apply IH].
Qed.

Lemma first_op_nth kind cls t s : forall k, first_op kind cls 0 t s = Some k ->
  exists cl, nth_error cls k = Some cl /\ is_matched cl = kind.
Proof.
  induction cls as [|c cls IH]; intros k H; cbn in H; [discriminate|].
  destruct (Bool.eqb (is_matched c) kind && holds (ccond c) t s) eqn:E.
  - injection H as <-. exists c. apply andb_true_iff in E as [E _]. apply Bool.eqb_prop in E. auto.
  - rewrite first_op_shift in H. destruct (first_op kind cls 0 t s) as [k'|]; [|discriminate]. injection H as <-. apply IH. reflexivity.
Qed.

Lemma in_cands_m m tgt src s w : In (s, w) (cands_m m tgt src) <->
  exists t, In t tgt /\ In s src /\ joins (on m) t s = true /\ op_m m t s = Some w.
Proof.
  unfold cands_m. rewrite in_flat_map. split.
  - intros (t & Ht & H). apply in_flat_map in H as (s' & Hs' & H).
    destruct (joins (on m) t s') eqn:J; [|destruct H]. destruct (op_m m t s') eqn:O; [|destruct H].
    destruct H as [H|[]]. injection H as <- <-. exists t. auto.
  - intros (t & Ht & Hs & J & O). exists t. split; [exact Ht|]. apply in_flat_map. exists s. split; [exact Hs|].
    rewrite J, O. left. reflexivity.
Qed.

Lemma in_cands_n m tgt src s w : In (s, w) (cands_n m tgt src) <->
  In s src /\ unmatched m tgt s = true /\ op_n m s = Some w.
Proof.
  unfold cands_n. rewrite in_flat_map. split.
  - intros (s' & Hs' & H). destruct (unmatched m tgt s') eqn:U; [|destruct H]. destruct (op_n m s') eqn:O; [|destruct H].
    destruct H as [H|[]]. injection H as <- <-. auto.
  - intros (Hs & U & O). exists s. split; [exact Hs|]. rewrite U, O. left. reflexivity.
Qed.

Lemma unmatched_false m tgt s t : In t tgt -> joins (on m) t s = true -> unmatched m tgt s = false.
Proof.
  intros Ht J. unfold unmatched. apply negb_false_iff. apply existsb_exists. exists t. auto.
Qed.

Lemma cands_m_kind m tgt src c : In c (cands_m m tgt src) -> op_kind m (snd c) = Some KUpd \/ op_kind m (snd c) = Some KDel.
Proof.
  destruct c as [s w]. intros H. apply in_cands_m in H as (t & _ & _ & _ & O).
  destruct (first_op_nth _ _ _ _ _ O) as (cl & Hn & Hk). unfold op_kind. cbn. rewrite Hn.
  destruct cl; try discriminate; auto.
Qed.

Lemma cands_n_kind m tgt src c : In c (cands_n m tgt src) -> op_kind m (snd c) = Some KIns.
Proof.
  destruct c as [s w]. intros H. apply in_cands_n in H as (_ & _ & O).
  destruct (first_op_nth _ _ _ _ _ O) as (cl & Hn & Hk). unfold op_kind. cbn. rewrite Hn.
  destruct cl; try discriminate; reflexivity.
Qed.

Lemma op_consistent_spec m tgt src : op_consistent m tgt src = true <->
  forall s t1 t2, In s src -> In t1 tgt -> In t2 tgt -> joins (on m) t1 s = true -> joins (on m) t2 s = true -> op_m m t1 s = op_m m t2 s.
Proof.
  unfold op_consistent. rewrite forallb_forall. split.
  - intros H s t1 t2 Hs H1 H2 J1 J2. specialize (H s Hs). rewrite forallb_forall in H. specialize (H t1 H1).
    rewrite forallb_forall in H. specialize (H t2 H2). rewrite J1, J2 in H. cbn in H.
    destruct (op_m m t1 s), (op_m m t2 s); try discriminate; try reflexivity. apply Nat.eqb_eq in H. congruence.
  - intros H s Hs. apply forallb_forall. intros t1 H1. apply forallb_forall. intros t2 H2.
    destruct (joins (on m) t1 s) eqn:J1; [|reflexivity]. destruct (joins (on m) t2 s) eqn:J2; [|reflexivity]. cbn.
    rewrite (H s t1 t2) by assumption. destruct (op_m m t2 s); [apply Nat.eqb_refl|reflexivity].
Qed.

Lemma det_partner m tgt src t s : deterministic m tgt src = true -> In t tgt -> In s src -> joins (on m) t s = true ->
  filter (joins (on m) t) src = [s].
Proof.
  intros H Ht. unfold deterministic in H. rewrite forallb_forall in H. apply filter_sole. exact (H t Ht).
Qed.

(* under `deterministic` a target row has at most one partner, hence at most one row of merge_candidates of its own;
   spec_row is a case analysis on it: `act` is what the clause that candidate names does to the row *)
Definition own (m : merge) (src : list row) (t : row) : option cand :=
  match filter (joins (on m) t) src with
  | s :: _ => option_map (pair s) (op_m m t s)
  | [] => None
  end.

Definition act (m : merge) (o : option cand) (t : row) : list row :=
  match o with
  | Some (s, w) => match nth_error (clauses m) w with
                   | Some (MUpdate _ asg) => [apply_asg asg t s]
                   | Some (MDelete _) => []
                   | _ => [t]
                   end
  | None => [t]
  end.

Lemma spec_row_own m src t : spec_row m src t = act m (own m src t) t.
Proof. unfold spec_row, own. destruct (filter _ src) as [|s l]; [reflexivity|]. destruct (op_m m t s); reflexivity. Qed.

(* the re-join of statement w finds a target row's partner exactly when w is the row's own clause: candidates of
   other target rows with the same partner carry the same index (op_consistent), and not-matched candidates join nothing *)
Lemma hit_own m tgt src t w : deterministic m tgt src = true -> op_consistent m tgt src = true -> In t tgt ->
  hit (on m) (cands m tgt src) w t = match own m src t with Some (s, w') => if Nat.eqb w' w then Some s else None | None => None end.
Proof.
  intros Hdet Hcons Ht. unfold cands, own. destruct (hit _ _ w t) as [s|] eqn:H.
  - apply hit_some in H as [Hin J]. apply in_app_or in Hin as [Hin|Hin].
    + apply in_cands_m in Hin as (t' & Ht' & Hs & J' & O).
      rewrite (det_partner _ _ _ _ _ Hdet Ht Hs J), (proj1 (op_consistent_spec _ _ _) Hcons s t t'), O by assumption.
      cbn. rewrite Nat.eqb_refl. reflexivity.
    + apply in_cands_n in Hin as (_ & U & _). rewrite (unmatched_false _ _ _ _ Ht J) in U. discriminate.
  - destruct (filter _ src) as [|s l] eqn:F; [reflexivity|].
    assert (I : In s (filter (joins (on m) t) src)) by (rewrite F; left; reflexivity). apply filter_In in I as [Hs J].
    destruct (op_m m t s) as [w'|] eqn:O; [|reflexivity]. cbn. destruct (Nat.eqb_spec w' w) as [->|]; [|reflexivity].
    rewrite (hit_none _ _ _ _ s H) in J; [discriminate|]. apply in_or_app. left. apply in_cands_m. exists t. auto.
Qed.

(* a row that only statement w finds, with partner s, is changed by that statement alone: the statements before do not
   find it, and those after do not find what an UPDATE made of it, since it still has the row's keys *)
Lemma run_row_own m cs t o : no_key_assign m = true ->
  (forall k, hit (on m) cs k t = match o with Some (s, w) => if Nat.eqb w k then Some s else None | None => None end) ->
  run_row m cs 0 (clauses m) t = act m o t.
Proof.
  intros Hnka H. destruct o as [[s w]|]; cbn [act].
  2:{ apply run_row_nohit. intros k _. apply H. }
  assert (Hne : forall k, k <> w -> hit (on m) cs k t = None).
  { intros k Hk. rewrite H. destruct (Nat.eqb_spec w k); congruence. }
  specialize (H w). rewrite Nat.eqb_refl in H.
  destruct (nth_error (clauses m) w) as [cl|] eqn:Hn.
  2:{ apply nth_error_None in Hn. apply run_row_nohit. intros k Hk. apply Hne. lia. }
  pose proof (nth_error_In _ _ Hn) as Hin. destruct (nth_error_split _ _ Hn) as (pre & post & E & <-). rewrite E.
  rewrite run_row_skip by (intros k Hk; apply Hne; lia). cbn [run_row Nat.add].
  destruct cl as [c asg|c|c cols vals]; cbn [mut_row flat_map]; rewrite ?H, ?app_nil_r; [|reflexivity|].
  - apply run_row_nohit. intros k Hk. rewrite (hit_ext _ _ _ _ t) by (apply (no_key_assign_spec _ _ _ Hnka Hin)). apply Hne. lia.
  - apply run_row_nohit. intros k Hk. apply Hne. lia.
Qed.

Lemma matched_rows m tgt src : deterministic m tgt src = true -> op_consistent m tgt src = true -> no_key_assign m = true ->
  flat_map (run_row m (cands m tgt src) 0 (clauses m)) tgt = flat_map (spec_row m src) tgt.
Proof.
  intros Hdet Hcons Hnka. rewrite !flat_map_concat_map. f_equal. apply map_ext_in. intros t Ht.
  rewrite spec_row_own. apply run_row_own; [exact Hnka|]. intros k. apply hit_own; assumption.
Qed.

Lemma filter_cands_n m tgt src w :
  filter (fun c => Nat.eqb (snd c) w) (cands_n m tgt src) =
  map (fun s => (s, w)) (filter (fun s => unmatched m tgt s && match op_n m s with Some w' => Nat.eqb w' w | None => false end) src).
Proof.
  unfold cands_n. induction src as [|s src IH]; cbn; [reflexivity|].
  rewrite filter_app, IH. destruct (unmatched m tgt s); cbn; [|reflexivity].
  destruct (op_n m s) as [w'|]; cbn; [|reflexivity].
  destruct (Nat.eqb_spec w' w) as [->|]; reflexivity.
Qed.

Lemma filter_cands_m m tgt src w : op_kind m w = Some KIns -> filter (fun c => Nat.eqb (snd c) w) (cands_m m tgt src) = [].
Proof.
  intros Hw. apply (filter_const _ false). intros c Hc. apply Nat.eqb_neq. intros E. rewrite <- E in Hw.
  destruct (cands_m_kind _ _ _ _ Hc); congruence.
Qed.

Lemma inserts_only_last cls : forallb (fun c => negb (is_matched c)) cls = true -> inserts_last cls = true.
Proof.
  destruct cls as [|c cls]; cbn; [reflexivity|]. intros H. apply andb_true_iff in H as [Hc H].
  apply negb_true_iff in Hc. rewrite Hc. exact H.
Qed.

Lemma run_inserts m cs cls : forallb (fun c => negb (is_matched c)) cls = true -> forall w cur,
  run_clauses m cs w cls cur = cur ++ run_clauses m cs w cls [].
Proof.
  induction cls as [|cl cls IH]; intros H w cur; cbn [run_clauses]; [rewrite app_nil_r; reflexivity|].
  cbn in H. apply andb_true_iff in H as [Hc H]. destruct cl; try discriminate. cbn [mutate app].
  rewrite (IH H _ (cur ++ _)), (IH H _ (map _ _)), app_assoc. reflexivity.
Qed.

(* what the statements make of the empty table: each INSERT statement adds the rows of its candidates, and the statements
   after it are INSERTs as well, which leave them alone *)
Lemma inserted_rows_from m tgt src : forall cls pre, clauses m = pre ++ cls -> inserts_last cls = true ->
  run_clauses m (cands m tgt src) (length pre) cls [] = spec_inserts m tgt src (length pre) cls.
Proof.
  induction cls as [|cl cls IH]; intros pre Hc Hil; [reflexivity|].
  specialize (IH (pre ++ [cl])). rewrite last_length, <- app_assoc in IH.
  destruct cl as [c asg|c|c cols vals]; cbn in Hil; cbn [run_clauses spec_inserts mutate map filter app]; [apply IH; assumption ..|].
  rewrite run_inserts, IH by auto using inserts_only_last. f_equal. unfold cands.
  rewrite filter_app, filter_cands_m, filter_cands_n; [apply map_map|].
  unfold op_kind. rewrite Hc, nth_error_app2, Nat.sub_diag by auto. reflexivity.
Qed.

Lemma inserted_rows m tgt src : inserts_last (clauses m) = true ->
  run_clauses m (cands m tgt src) 0 (clauses m) [] = spec_inserts m tgt src 0 (clauses m).
Proof. apply (inserted_rows_from m tgt src (clauses m) []). reflexivity. Qed.

Fixpoint src_only (c : cond) : bool :=
  match c with
  | CTrue => true
  | CCmp Src _ _ _ | CIsNull Src _ => true
  | CCmp Tgt _ _ _ | CIsNull Tgt _ | CCol _ _ _ => false
  | CAnd a b | COr a b => src_only a && src_only b
  | CNot a => src_only a
  end.

Lemma src_only_eval c : src_only c = true -> forall t t' s, ceval c t s = ceval c t' s.
Proof.
  intros H t t' s. induction c as [|sd i op k|i j op|sd i|a IHa b IHb|a IHa b IHb|a IHa]; cbn in *;
    try destruct sd; try discriminate; try reflexivity.
  1,2: apply andb_true_iff in H as [Ha Hb]; rewrite (IHa Ha), (IHb Hb); reflexivity.
  rewrite (IHa H). reflexivity.
Qed.

Definition conds_src_only (m : merge) : bool :=
  forallb (fun cl => negb (is_matched cl) || src_only (ccond cl)) (clauses m).

Lemma first_op_src_only cls : forallb (fun cl => negb (is_matched cl) || src_only (ccond cl)) cls = true ->
  forall w t t' s, first_op true cls w t s = first_op true cls w t' s.
Proof.
  induction cls as [|c cls IH]; intros H w t t' s; cbn; [reflexivity|].
  cbn in H. apply andb_true_iff in H as [H1 H2]. rewrite (IH H2 (S w) t t' s).
  destruct (is_matched c) eqn:Mc; cbn in *; [|reflexivity].
  unfold holds. rewrite (src_only_eval _ H1 t t' s). reflexivity.
Qed.

(* no two target rows share a source partner *)
Definition uniq_keys (m : merge) (tgt src : list row) : bool :=
  forallb (fun s => Nat.leb (length (filter (fun t => joins (on m) t s) tgt)) 1) src.

Lemma uniq_keys_spec m tgt src s t1 t2 : uniq_keys m tgt src = true -> In s src -> In t1 tgt -> In t2 tgt ->
  joins (on m) t1 s = true -> joins (on m) t2 s = true -> t1 = t2.
Proof.
  intros H Hs H1 H2 J1 J2. unfold uniq_keys in H. rewrite forallb_forall in H. specialize (H s Hs).
  pose proof (filter_sole _ _ t1 H H1 J1) as E. rewrite (filter_sole _ _ t2 H H2 J2) in E. congruence.
Qed.

Lemma count_kind_app m a b k : count_kind m (a ++ b) k = (count_kind m a k + count_kind m b k)%nat.
Proof. unfold count_kind. rewrite filter_app, app_length. reflexivity. Qed.

Lemma count_cands_n m tgt src k : count_kind m (cands_n m tgt src) k =
  if kind_eqb k KIns
  then length (filter (fun s => unmatched m tgt s && match op_n m s with Some _ => true | None => false end) src)
  else 0%nat.
Proof.
  unfold count_kind. rewrite (filter_const _ (kind_eqb k KIns)) by (intros c Hc; rewrite (cands_n_kind _ _ _ _ Hc); reflexivity).
  destruct (kind_eqb k KIns); [|reflexivity].
  unfold cands_n, cand. induction src as [|s src IH]; [reflexivity|]. cbn [flat_map filter]. rewrite app_length, IH.
  destruct (unmatched m tgt s); cbn; [|reflexivity]. destruct (op_n m s); reflexivity.
Qed.

Lemma count_cands_m_ins m tgt src : count_kind m (cands_m m tgt src) KIns = 0%nat.
Proof.
  unfold count_kind. rewrite (filter_const _ false); [reflexivity|].
  intros c Hc. destruct (cands_m_kind _ _ _ _ Hc) as [E|E]; rewrite E; reflexivity.
Qed.

(* the candidates of one target row: its own, if it has at most one partner *)
Lemma count_own m src k t : (length (filter (joins (on m) t) src) <=? 1)%nat = true ->
  count_kind m (flat_map (fun s => if joins (on m) t s then match op_m m t s with Some w => [(s, w)] | None => [] end else []) src) k =
  if match row_kind m src t with Some k' => kind_eqb k k' | None => false end then 1%nat else 0%nat.
Proof.
  intros H. rewrite flat_map_filter. unfold row_kind, count_kind.
  destruct (filter (joins (on m) t) src) as [|s [|s2 l]]; [reflexivity| |discriminate]. cbn.
  destruct (op_m m t s) as [w|]; [|reflexivity]. cbn. destruct (op_kind m w) as [k'|]; [|reflexivity]. destruct (kind_eqb k k'); reflexivity.
Qed.

Lemma count_cands_m m src k tgt : deterministic m tgt src = true ->
  count_kind m (cands_m m tgt src) k = length (filter (fun t => match row_kind m src t with Some k' => kind_eqb k k' | None => false end) tgt).
Proof.
  unfold cands_m. induction tgt as [|t tgt IH]; intros Hdet; [reflexivity|].
  cbn in Hdet. apply andb_true_iff in Hdet as [Ht Hdet].
  cbn [flat_map filter]. rewrite count_kind_app, (count_own _ _ _ _ Ht), (IH Hdet).
  destruct (match row_kind m src t with Some k' => kind_eqb k k' | None => false end); reflexivity.
Qed.

Lemma count_kind_spec m tgt src k : deterministic m tgt src = true ->
  count_kind m (cands m tgt src) k = spec_count m tgt src k.
Proof.
  intros Hdet. unfold cands. rewrite count_kind_app, count_cands_n.
  destruct k; cbn [kind_eqb spec_count]; [rewrite count_cands_m_ins; reflexivity|..];
    rewrite Nat.add_0_r; apply count_cands_m; exact Hdet.
Qed.

Definition r3 (a b c : Z) : row := [Some a; Some b; Some c].
Definition m_of (cls : list clause) : merge := {| on := [(0, 0)]%nat; clauses := cls; width := 3 |}.

(* a non-trivial merge inside dom: duplicate target keys, NULL keys, three clause kinds, a target-side condition *)
Definition ex_m : merge := m_of [MDelete (CCmp Src 1 0 21); MUpdate (CCmp Tgt 2 1 1000) [(1%nat, SCol 1); (2%nat, SConst (Some 7))];
                                 NInsert (CCmp Src 1 2 40) [0; 1]%nat [SCol 0; SCol 1]; NInsert CTrue [0; 1; 2]%nat [SCol 0; SConst None; SCol 2]].
Definition ex_tgt : list row := [r3 1 10 100; r3 2 20 200; r3 2 22 222; r3 3 30 300; [None; Some 1; Some 1]].
Definition ex_src : list row := [r3 2 21 201; r3 3 31 301; r3 4 41 401; r3 5 5 5; [None; Some 2; Some 2]].

Lemma ins_count_example : spec_count ex_m ex_tgt ex_src KIns = 3%nat /\ spec_count ex_m ex_tgt ex_src KUpd = 1%nat /\ spec_count ex_m ex_tgt ex_src KDel = 2%nat.
Proof. vm_compute. auto. Qed.
