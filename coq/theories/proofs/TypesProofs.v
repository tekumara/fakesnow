From FS Require Import Sexp Types.

(* the domain on which the table is right: everything except DECIMAL(p,0) *)
Definition dom (t : dtype) : bool := match t with DDecimal _ s => negb (s =? 0) | _ => true end.

Lemma describe_cons c cols : describe (c :: cols) =
  match sf_meta (snd c), describe cols with Some m, Some l => Some ((fst c, m) :: l) | _, _ => None end.
Proof. reflexivity. Qed.

Example types_nonvacuous :
  describe [(lit "A", DBigint); (lit "b c", DDecimal 10 2); (lit "A", DTimestampTz)] =
    Some [(lit "A", mk Fixed (Some 38) (Some 0) None); (lit "b c", mk Fixed (Some 10) (Some 2) None);
          (lit "A", mk TsTz (Some 0) (Some 9) None)] /\
  describe [(lit "S", DOther 1)] = None.
Proof. vm_compute. split; reflexivity. Qed.
