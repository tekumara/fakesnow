From FS Require Import Sexp Types Store.
From Coq Require Import Lia.

(* the one place where the mapped DuckDB type is narrower than the Snowflake type *)
Definition vdom (t : sftype) (v : value) : bool :=
  match t, v with
  | TIntFamily, VNum u _ => (- 2 ^ 63 <=? u) && (u <? 2 ^ 63)
  | _, _ => true
  end.

Lemma pow10_mono p : 1 <= p <= 38 -> 10 ^ p <= 10 ^ 38.
Proof. intros H. apply Z.pow_le_mono_r; lia. Qed.

(* on the values Snowflake accepts for the declared type, the mapped DuckDB type holds exactly those in vdom.
   Only six pairs have bounds to compare: NUMBER, the integer family, DATE, TIME and the two TIMESTAMPs. *)
Theorem duck_dom_mapped t v : sf_dom t v = true -> duck_dom (map_type t) v = vdom t v.
Proof.
  destruct t, v; try discriminate; try reflexivity; unfold sf_dom, duck_dom, map_type, vdom, abs_lt_pow10; lia.
Qed.

(* the Python kind read back is the connector's, except for NUMBER(p,0) with explicit parameters *)
Definition kdom (t : sftype) : bool := match t with TNumber _ s => negb (s =? 0) | _ => true end.

Theorem pykind_mapped t : py_kind (map_type t) = Some (connector_kind t) <-> kdom t = true.
Proof. destruct t; cbn; try tauto. destruct (s =? 0); cbn; split; congruence. Qed.

(* full-precision edges are inside the domain *)
Example store_nonvacuous :
  sf_dom (TNumber 38 37) (VNum (10 ^ 38 - 1) 37) = true /\ duck_dom (map_type (TNumber 38 37)) (VNum (10 ^ 38 - 1) 37) = true /\
  sf_dom TIntFamily (VNum (2 ^ 63 - 1) 0) = true /\ vdom TIntFamily (VNum (2 ^ 63 - 1) 0) = true /\
  sf_dom TTsNtz (VTs (-62135596800000000)) = true /\ duck_dom (map_type TTsNtz) (VTs (-62135596800000000)) = true.
Proof. vm_compute. repeat split. Qed.
