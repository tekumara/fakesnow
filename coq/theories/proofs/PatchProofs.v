From FS Require Import Sexp Patch.

Lemma get_set w i v j : get (set w i v) j = if Nat.eqb i j then (if Nat.ltb i (length w) then v else get w j) else get w j.
Proof.
  revert i j. induction w as [|x w IH]; intros i j.
  - destruct (Nat.eqb i j); reflexivity.
  - destruct i, j; try reflexivity. exact (IH i j).
Qed.

Lemma length_set w i v : length (set w i v) = length w.
Proof. revert i. induction w as [|x w IH]; intros [|i]; cbn; auto. Qed.

(* the model writes only where it has just read VOrig or VUnloaded, hence inside the table *)
Lemma get_set_live w i v j : get w i <> VNoModule -> get (set w i v) j = if Nat.eqb i j then v else get w j.
Proof.
  intros Live. rewrite get_set. destruct (Nat.ltb_spec i (length w)) as [|Out]; [reflexivity|].
  destruct Live. apply nth_overflow, Out.
Qed.

(* writing back what a location held undoes a write, inside the table or not *)
Lemma set_undo w i v : set (set w i v) i (get w i) = w.
Proof. revert i. induction w as [|x w IH]; intros [|i]; cbn; [reflexivity..|]. f_equal. apply IH. Qed.

Definition wf (w : world) : Prop := get w 0%nat = VOrig true /\ get w 1%nat = VOrig false.

Lemma wf_std w c : wf w -> get w (std c) = VOrig c.
Proof. intros [A B]. destruct c; assumption. Qed.

(* every location holds what it held before, or - if its module had not been imported
   yet - the original function that importing it binds *)
Definition imported (w0 w : world) : Prop :=
  forall i, get w i = get w0 i \/ (exists c, get w0 i = VUnloaded c /\ get w i = VOrig c).

Lemma imported_refl w : imported w w.
Proof. intros i. left. reflexivity. Qed.

Lemma imported_orig w0 w i c : imported w0 w -> get w0 i = VOrig c -> get w i = VOrig c.
Proof. intros Im E. destruct (Im i) as [->|(c' & E' & _)]; congruence. Qed.

Lemma imported_wf w0 w : wf w0 -> imported w0 w -> wf w.
Proof. intros [A B] Im. split; eapply imported_orig; eassumption. Qed.

Lemma import_all_imported ts : forall w0 w, wf w0 -> imported w0 w -> imported w0 (fst (import_all ts w)).
Proof.
  induction ts as [|t ts IH]; intros w0 w W Im; cbn; [exact Im|].
  destruct (get w t) eqn:G; auto.
  (* the module of t is imported *)
  apply IH; [exact W|]. intros i.
  rewrite (imported_orig _ _ _ _ Im (wf_std _ c W)), get_set_live by congruence.
  destruct (Nat.eqb_spec t i) as [<-|_]; [|apply Im].
  right. exists c. destruct (Im t) as [<-|(c' & _ & E)]; [auto|congruence].
Qed.

(* the stack is an undo log: closing it at any point of the target loop gives back the world the loop started from *)
Lemma enter_unwind ts : forall w st w' st' ok,
  enter ts w st = (w', st', ok) -> unwind st' w' = unwind st w.
Proof.
  induction ts as [|t ts IH]; intros w st w' st' ok E; cbn in E.
  - now inversion E.
  - destruct (get w t) eqn:G; try now inversion E.
    + rewrite (IH _ _ _ _ _ E). cbn. rewrite <- G, set_undo. reflexivity.
    + exact (IH _ _ _ _ _ E).
Qed.

Lemma enter_mocks ts : forall w st w' st', enter ts w st = (w', st', true) ->
  forall i, In i ts \/ get w i = VMock -> get w' i = VMock.
Proof.
  induction ts as [|t ts IH]; intros w st w' st' E i H; cbn in E.
  - inversion E; subst. destruct H as [[]|H]; exact H.
  - destruct (get w t) eqn:G; try discriminate; apply (IH _ _ _ _ E).
    + rewrite get_set_live by congruence. destruct (Nat.eqb_spec t i); [auto|]. destruct H as [[|]|]; tauto.
    + destruct H as [[<-|]|]; auto.
Qed.

Lemma patch_refused extras br w : is_mock (get w 0%nat) = true ->
  patch extras br w = {| inside := None; after := w; res := RRefused; closed := false |}.
Proof. unfold patch. intros ->. reflexivity. Qed.

Lemma patch_entered extras br w : is_mock (get w 0%nat) = false ->
  let ts := 0%nat :: 1%nat :: extras in let r := patch extras br w in
  closed r = true /\ after r = fst (import_all ts w) /\
  forall wi, inside r = Some wi -> forall t, In t ts -> get wi t = VMock.
Proof.
  intros M ts. unfold patch. rewrite M. fold ts.
  destruct (import_all ts w) as [w1 [|]]; [|repeat split; discriminate].
  destruct (enter ts w1 []) as [[w2 st] ok] eqn:E.
  assert (U : unwind st w2 = w1) by apply (enter_unwind _ _ _ _ _ _ E).
  destruct ok; refine (conj eq_refl (conj U _)); [|discriminate].
  intros wi [= <-] t Ht. apply (enter_mocks _ _ _ _ _ E). auto.
Qed.

Example patch_nonvacuous :
  let w := [VOrig true; VOrig false; VOrig true; VUnloaded true; VOther] in
  wf w /\
  after (patch [2%nat; 3%nat; 2%nat] true w) = [VOrig true; VOrig false; VOrig true; VOrig true; VOther] /\
  res (patch [2%nat; 3%nat; 2%nat] true w) = RBodyRaised /\
  res (patch [3%nat; 4%nat] false w) = RAssert /\
  after (patch [3%nat; 4%nat] false w) = [VOrig true; VOrig false; VOrig true; VOrig true; VOther].
Proof. vm_compute. repeat split. Qed.
