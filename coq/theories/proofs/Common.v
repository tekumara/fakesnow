From FS Require Import Sexp.

(* str_eqb (Sexp.v) and the two key_eqb (Meta.v, Steps.v) are the same recursion over different element tests *)
Lemma list_eqb_spec {X} (eqb : X -> X -> bool) (leqb : list X -> list X -> bool) :
  (forall x y, reflect (x = y) (eqb x y)) ->
  (forall a b, leqb a b = match a, b with [], [] => true | x :: a', y :: b' => eqb x y && leqb a' b' | _, _ => false end) ->
  forall a b, reflect (a = b) (leqb a b).
Proof.
  intros E U. induction a as [|x a IH]; intros [|y b]; rewrite U; try (constructor; congruence).
  destruct (E x y) as [->|N]; [|constructor; congruence].
  destruct (IH b) as [->|N]; constructor; congruence.
Qed.

Lemma str_eqb_spec a b : reflect (a = b) (str_eqb a b).
Proof. apply (list_eqb_spec Z.eqb); [exact Z.eqb_spec|intros [|] [|]; reflexivity]. Qed.

Lemma str_eqb_refl a : str_eqb a a = true.
Proof. destruct (str_eqb_spec a a); congruence. Qed.

Lemma str_eqb_eq a b : str_eqb a b = true -> a = b.
Proof. destruct (str_eqb_spec a b); congruence. Qed.

Lemma str_eqb_sym a b : str_eqb a b = str_eqb b a.
Proof. destruct (str_eqb_spec a b), (str_eqb_spec b a); congruence. Qed.
