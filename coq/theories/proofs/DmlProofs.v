From FS Require Import Sexp Dml.
From Coq Require Import Lia.

(* the table a number names: tget and tset read every t >= 2 as table 2 *)
Definition norm (t : nat) : nat := match t with O => 0%nat | S O => 1%nat | _ => 2%nat end.

Lemma tget_tset_same d t x : tget (tset d t x) t = x.
Proof. destruct d as [[t0 t1] t2]. destruct t as [|[|t]]; reflexivity. Qed.
Lemma tget_tset_other d t t' x : norm t <> norm t' -> tget (tset d t x) t' = tget d t'.
Proof. destruct d as [[t0 t1] t2]. destruct t as [|[|t]], t' as [|[|t']]; cbn; intros H; try reflexivity; congruence. Qed.

Definition target (s : stmt) : nat :=
  match s with InsertValues t _ _ | InsertSelect t _ _ _ | Update t _ _ _ | Delete t _ | Truncate t => t end.

Lemma engine_frame d s t' : norm (target s) <> norm t' -> tget (fst (engine d s)) t' = tget d t'.
Proof. intros H. destruct s; apply tget_tset_other, H. Qed.

Lemma insert_appends d s t c new : engine d s = (tset d t (tget d t ++ map (place c) new), length new) ->
  tget (fst (engine d s)) t = tget d t ++ map (place c) new /\ snd (engine d s) = length new /\
  length (tget (fst (engine d s)) t) = (length (tget d t) + length new)%nat.
Proof. intros ->. cbn [fst snd]. rewrite tget_tset_same, app_length, map_length. auto. Qed.

Lemma filter_partition {X} (f : X -> bool) (l : list X) :
  length l = (length (filter f l) + length (filter (fun x => negb (f x)) l))%nat.
Proof. induction l as [|x l IH]; cbn; [reflexivity|]. destruct (f x); cbn; lia. Qed.

Lemma filter_filter_neg {X} (f : X -> bool) (l : list X) : filter f (filter (fun x => negb (f x)) l) = [].
Proof. induction l as [|x l IH]; cbn; [reflexivity|]. destruct (f x) eqn:E; cbn; rewrite ?E; exact IH. Qed.

(* the UPDATE sets b := b + 1 where NOT (a = 1): UNKNOWN on the row whose a is NULL, TRUE only on (2, NULL), whose new b
   is NULL again, so the table is as it was and the count is 1; a = NULL selects no row *)
Example dml_nonvacuous :
  let d := ([(Some 1, Some 2); (None, Some 3); (Some 2, None)], [], []) in
  fake d (Update 0 true (Plus true 1) (Not (Eq (Col false) (Const (Some 1))))) =
    (([(Some 1, Some 2); (None, Some 3); (Some 2, None)], [], []), {| stat := SUpdated 1; rowcount := 1 |}) /\
  fake d (Delete 0 (Eq (Col false) (Const None))) = (d, {| stat := SDeleted 0; rowcount := 0 |}) /\
  snd (fake d (Delete 0 (Or (IsNull (Col true)) (Lt (Col false) (Const (Some 2)))))) = {| stat := SDeleted 2; rowcount := 2 |}.
Proof. vm_compute. repeat split. Qed.
