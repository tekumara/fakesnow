From FS Require Import Sexp Errs.

(* the causes the engine raises itself while it resolves a statement: those of engine_class Catalog or Binder *)
Definition is_reference (c : cause) : bool :=
  match c with NoDatabase | NoSchema | UndefinedVariable | ClosedConnection => false | _ => true end.

Example errs_nonvacuous :
  sq_run [ExecOk; ExecRaises UnknownTable] = Some st_42S02 /\
  sq_run [ExecRaises UnknownTable; ExecRaises NoSchema] = Some st_22000 /\
  sq_run [ExecRaises UnknownColumn; ExecOk] = None.
Proof. vm_compute. repeat split. Qed.
