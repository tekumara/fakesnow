From FS Require Import Sexp Cli.

(* the grammar of fakesnow's own leading options and of the target *)
Inductive fsopt :=
| DSp (long : bool) (v : str)    (* -d v | --db_path v *)
| DEq (long : bool) (v : str)    (* -d=v | --db_path=v *)
| DGl (v : str).                 (* -dv *)

Inductive target :=
| TgM (long : bool) (m : str)    (* -m mod | --module mod *)
| TgMEq (long : bool) (m : str)  (* -m=mod | --module=mod *)
| TgMGl (m : str)                (* -mmod *)
| TgPath (p : str).

Definition glue_ok (v : str) : bool := match v with [] => false | c :: _ => negb (c =? 61) end.
Definition nonnil (v : str) : bool := match v with [] => false | _ => true end.

Definition opt_ok (o : fsopt) : bool :=
  match o with DSp _ v => negb (starts_dash v) | DEq _ _ => true | DGl v => glue_ok v end.
Definition dflag (long : bool) : str := if long then s_db else s_d.
Definition mflag (long : bool) : str := if long then s_module else s_m.
Definition render_opt (o : fsopt) : list str :=
  match o with
  | DSp l v => [dflag l; v]
  | DEq l v => [dflag l ++ 61 :: v]
  | DGl v => [s_d ++ v]
  end.
Definition opt_val (o : fsopt) : str := match o with DSp _ v | DEq _ v | DGl v => v end.

Definition tgt_ok (t : target) : bool :=
  match t with
  | TgM _ m => nonnil m && negb (starts_dash m)
  | TgMEq _ m => nonnil m
  | TgMGl m => glue_ok m
  | TgPath p => nonnil p && negb (starts_dash p)
  end.
Definition render_tgt (t : target) : list str :=
  match t with
  | TgM l m => [mflag l; m]
  | TgMEq l m => [mflag l ++ 61 :: m]
  | TgMGl m => [s_m ++ m]
  | TgPath p => [p]
  end.
Definition tgt_name (t : target) : str := match t with TgM _ m | TgMEq _ m | TgMGl m | TgPath m => m end.
Definition tgt_is_module (t : target) : bool := match t with TgPath _ => false | _ => true end.

Fixpoint last_db (opts : list fsopt) (acc : option str) : option str :=
  match opts with [] => acc | o :: r => last_db r (Some (opt_val o)) end.

Lemma nodash_is_m v : starts_dash v = false -> is_m v = false.
Proof.
  destruct v as [|c v]; [reflexivity|]. cbn [starts_dash]. intros H.
  unfold is_m, s_m, s_module. cbn [str_eqb]. rewrite H. reflexivity.
Qed.
Lemma nodash_glued v : starts_dash v = false -> glued_m v = false.
Proof.
  destruct v as [|c v]; [reflexivity|]. cbn [starts_dash]. intros H.
  unfold glued_m, s_module_eq, s_m. cbn [prefixb]. rewrite (Z.eqb_sym 45 c), H. reflexivity.
Qed.
Lemma nodash_classify v : starts_dash v = false -> classify v = TPos.
Proof. unfold classify. intros ->. reflexivity. Qed.

(* split() takes such a token as the value of a preceding -d, and otherwise as the script path *)
Lemma cut_nodash f v rest : starts_dash v = false ->
  cut f (v :: rest) = if f then S (cut false rest) else 1%nat.
Proof. intros H. cbn [cut]. rewrite (nodash_is_m _ H), (nodash_glued _ H), H. reflexivity. Qed.

Lemma split_eq_cons c r : split_eq (c :: r) =
  if c =? 61 then Some ([], r) else match split_eq r with Some (p, q) => Some (c :: p, q) | None => None end.
Proof. reflexivity. Qed.

Lemma classify_dflag l : classify (dflag l) = TD.
Proof. destruct l; reflexivity. Qed.
Lemma classify_mflag l : classify (mflag l) = TM.
Proof. destruct l; reflexivity. Qed.
Lemma classify_deq l v : classify (dflag l ++ 61 :: v) = TDv v.
Proof. destruct l; reflexivity. Qed.
Lemma classify_meq l v : classify (mflag l ++ 61 :: v) = TMv v.
Proof. destruct l; reflexivity. Qed.

(* -dv and -mv: whatever '=' v holds further on, the part before it is longer than any flag *)
Lemma classify_glued (d : bool) v : glue_ok v = true ->
  classify ((if d then s_d else s_m) ++ v) = if d then TDv v else TMv v.
Proof.
  destruct v as [|c v]; [discriminate|]. cbn [glue_ok]. intros H%negb_true_iff.
  destruct d; cbn; rewrite H; destruct (split_eq v) as [[p q]|]; reflexivity.
Qed.

Lemma cut_opt o rest : opt_ok o = true ->
  cut false (render_opt o ++ rest) = (length (render_opt o) + cut false rest)%nat.
Proof.
  destruct o as [l v|l v|v]; cbn [opt_ok render_opt]; intros H.
  - (* the flag is passed with in_flag set, which carries over its value *)
    apply negb_true_iff in H. destruct l; exact (f_equal S (cut_nodash true v rest H)).
  - destruct l; reflexivity.
  - destruct v; [discriminate|reflexivity].
Qed.

Lemma cut_tgt t targs : tgt_ok t = true ->
  cut false (render_tgt t ++ targs) = length (render_tgt t).
Proof.
  destruct t as [l m|l m|m|p]; cbn [tgt_ok render_tgt]; intros H.
  - destruct l; reflexivity.
  - destruct l; reflexivity.
  - destruct m; [discriminate|reflexivity].
  - apply andb_true_iff in H as [_ H%negb_true_iff]. exact (cut_nodash false p targs H).
Qed.

Lemma split_at fs targs : cut false (fs ++ targs) = length fs -> split (fs ++ targs) = (fs, targs).
Proof. unfold split. intros ->. f_equal; induction fs; cbn; congruence. Qed.

Theorem split_rendered opts tgt targs : forallb opt_ok opts = true -> tgt_ok tgt = true ->
  split (concat (map render_opt opts) ++ render_tgt tgt ++ targs) =
  (concat (map render_opt opts) ++ render_tgt tgt, targs).
Proof.
  intros Ho Ht. rewrite app_assoc. apply split_at. rewrite <- app_assoc.
  induction opts as [|o opts IH]; cbn [map concat forallb app] in *.
  - apply cut_tgt, Ht.
  - apply andb_true_iff in Ho as [Ho Hr].
    rewrite <- !app_assoc, cut_opt, (IH Hr), (app_length (render_opt o)) by exact Ho. reflexivity.
Qed.

Lemma parse_opt o rest db md path extra unk : opt_ok o = true ->
  parse (render_opt o ++ rest) db md path extra unk =
  parse rest (Some (opt_val o)) md path extra unk.
Proof.
  destruct o as [l v|l v|v]; cbn [opt_ok render_opt opt_val app parse]; intros H.
  - apply negb_true_iff in H. unfold looks_positional. rewrite classify_dflag, (nodash_classify _ H). reflexivity.
  - rewrite classify_deq. reflexivity.
  - rewrite (classify_glued true _ H). reflexivity.
Qed.

Lemma parse_tgt t db : tgt_ok t = true ->
  parse (render_tgt t) db None None false false =
  if tgt_is_module t then POk db (Some (tgt_name t)) None false
  else POk db None (Some (tgt_name t)) false.
Proof.
  destruct t as [l m|l m|m|p]; cbn [tgt_ok render_tgt tgt_is_module tgt_name parse]; intros H.
  - apply andb_true_iff in H as [_ H%negb_true_iff].
    unfold looks_positional. rewrite classify_mflag, (nodash_classify _ H). reflexivity.
  - rewrite classify_meq. reflexivity.
  - rewrite (classify_glued false _ H). reflexivity.
  - apply andb_true_iff in H as [_ H%negb_true_iff]. rewrite (nodash_classify _ H). reflexivity.
Qed.

Theorem parse_rendered opts tgt db : forallb opt_ok opts = true -> tgt_ok tgt = true ->
  parse (concat (map render_opt opts) ++ render_tgt tgt) db None None false false =
  if tgt_is_module tgt then POk (last_db opts db) (Some (tgt_name tgt)) None false
  else POk (last_db opts db) None (Some (tgt_name tgt)) false.
Proof.
  intros Ho Ht. revert db. induction opts as [|o opts IH]; cbn [map concat forallb last_db app] in *; intros db.
  - apply parse_tgt, Ht.
  - apply andb_true_iff in Ho as [Ho Hr]. rewrite <- app_assoc, parse_opt by exact Ho. apply IH, Hr.
Qed.

Lemma nonnil_nonempty m : nonnil m = true -> nonempty (Some m) = Some m.
Proof. destruct m; [discriminate|reflexivity]. Qed.

Lemma tgt_nonnil t : tgt_ok t = true -> nonnil (tgt_name t) = true.
Proof. destruct t as [l m|l m|m|m]; (destruct m; [discriminate|reflexivity]). Qed.

Example passthrough_nonvacuous :
  let opts := [DEq true (lit "x"); DSp false (lit "dir"); DGl (lit "y")] in
  let tgt := TgMGl (lit "pytest") in
  forallb opt_ok opts = true /\ tgt_ok tgt = true /\
  main ((concat (map render_opt opts) ++ render_tgt tgt ++ [lit "-m"; lit "integration"; lit "--db_path=z"])%list)
  = ORun true (lit "pytest") [lit "pytest"; lit "-m"; lit "integration"; lit "--db_path=z"] (Some (lit "y")).
Proof. vm_compute. repeat split. Qed.
