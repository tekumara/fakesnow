From FS Require Import Sexp Connect Common.

Lemma mem_app x l1 l2 : mem x (l1 ++ l2) = mem x l1 || mem x l2.
Proof. unfold mem. apply existsb_app. Qed.
Lemma mem_single x y : mem x [y] = str_eqb x y.
Proof. unfold mem. cbn. apply orb_false_r. Qed.

Lemma schemas_of_app l d b d' :
  schemas_of (l ++ [(d, b)]) d' =
  match schemas_of l d' with Some ss => Some ss | None => if str_eqb d d' then Some b else None end.
Proof.
  induction l as [|[x ss] l IH]; cbn; [reflexivity|]. destruct (str_eqb x d'); [reflexivity|exact IH].
Qed.

Lemma schemas_of_add l d s d' :
  schemas_of (add_schema l d s) d' =
  match schemas_of l d' with
  | Some ss => if str_eqb d d' then Some (if mem s ss then ss else ss ++ [s]) else Some ss
  | None => None
  end.
Proof.
  induction l as [|[x ss] l IH]; cbn; [reflexivity|].
  destruct (str_eqb_spec x d) as [->|N]; cbn.
  - destruct (str_eqb d d'); [reflexivity|]. destruct (schemas_of l d'); reflexivity.
  - destruct (str_eqb_spec x d') as [<-|N']; [|exact IH]. destruct (str_eqb_spec d x); congruence.
Qed.

(* every database the instance can see has a MAIN schema; every attached one is known *)
Definition wfw (w : world) : Prop :=
  (forall d ss, schemas_of (dbs w) d = Some ss -> mem s_main ss = true) /\
  (forall d, db_exists w d = true -> schemas_of (dbs w) d <> None).

Lemma wf_main w d : wfw w -> db_exists w d = true -> schema_exists w d s_main = true.
Proof.
  intros [W1 W2] E. unfold schema_exists. rewrite E. cbn.
  destruct (schemas_of (dbs w) d) as [ss|] eqn:Hs; [eauto|]. exfalso. eapply W2; eauto.
Qed.

Lemma schema_exists_db w d s : schema_exists w d s = true -> db_exists w d = true.
Proof. unfold schema_exists. intros H. apply andb_true_iff in H as [H _]. exact H. Qed.

(* w' has every database and schema of w, and beyond them only databases in D and schemas in Sc *)
Definition extends (D : str -> Prop) (Sc : str -> str -> Prop) (w w' : world) : Prop :=
  (forall x, db_exists w x = true -> db_exists w' x = true) /\
  (forall x t, schema_exists w x t = true -> schema_exists w' x t = true) /\
  (forall x, db_exists w' x = true -> db_exists w x = true \/ D x) /\
  (forall x t, schema_exists w' x t = true -> schema_exists w x t = true \/ Sc x t).

Implicit Types (D : str -> Prop) (Sc : str -> str -> Prop).

Lemma extends_refl D Sc w : extends D Sc w w.
Proof. repeat split; auto. Qed.

Lemma extends_trans D Sc w w1 w2 : extends D Sc w w1 -> extends D Sc w1 w2 -> extends D Sc w w2.
Proof.
  intros (K & KS & N & NS) (K' & KS' & N' & NS'). repeat split; auto.
  - intros x H. destruct (N' x H); auto.
  - intros x t H. destruct (NS' x t H); auto.
Qed.

(* the databases known after ATTACH d: a file that is not there yet is created with the builtin schemas *)
Definition know (l : list (str * list str)) (d : str) : list (str * list str) :=
  match schemas_of l d with Some _ => l | None => l ++ [(d, builtin)] end.

Lemma schemas_of_know l d x :
  schemas_of (know l d) x =
  match schemas_of l x with Some ss => Some ss | None => if str_eqb d x then Some builtin else None end.
Proof.
  unfold know. destruct (schemas_of l d) eqn:E; [|apply schemas_of_app].
  destruct (schemas_of l x) eqn:Ex; [reflexivity|]. destruct (str_eqb_spec d x); congruence.
Qed.

Lemma attach_eq w d :
  attach_if_not_exists w d =
  Some (if db_exists w d then w else {| dbs := know (dbs w) d; attached := attached w ++ [d] |}).
Proof. unfold attach_if_not_exists, know. destruct (db_exists w d), (schemas_of (dbs w) d); reflexivity. Qed.

(* ATTACH IF NOT EXISTS stays within any budget that allows database d and, if d was not attached, its schemas *)
Lemma attach_spec D Sc w d : wfw w -> D d -> (db_exists w d = false -> forall t, Sc d t) ->
  exists w1, attach_if_not_exists w d = Some w1 /\ wfw w1 /\ extends D Sc w w1.
Proof.
  intros W Dd Sd. rewrite attach_eq. eexists. split; [reflexivity|].
  destruct (db_exists w d) eqn:E; [auto using extends_refl|]. destruct W as [W1 W2].
  unfold wfw, extends, schema_exists, db_exists in *. cbn [dbs attached].
  repeat split; intros x; rewrite ?mem_app, ?mem_single, ?schemas_of_know.
  - (* MAIN everywhere *) intros ss. destruct (schemas_of (dbs w) x) eqn:Sx; [intros [= <-]; eauto|].
    destruct (str_eqb d x); [intros [= <-]; reflexivity|discriminate].
  - (* attached databases are known *) destruct (schemas_of (dbs w) x) eqn:Sx; [discriminate|].
    intros [H%W2|H%str_eqb_eq]%orb_true_iff; [congruence|subst; rewrite str_eqb_refl; discriminate].
  - (* databases stay *) intros ->. reflexivity.
  - (* schemas stay *) intros t [H1 H2]%andb_true_iff. rewrite H1. destruct (schemas_of (dbs w) x); [exact H2|discriminate].
  - (* the only new database is d *) intros [H|H%str_eqb_eq]%orb_true_iff; subst; auto.
  - (* new schemas are d's *) intros t [[H|H%str_eqb_eq]%orb_true_iff H2]%andb_true_iff; [|subst; auto].
    left. rewrite H. apply W2 in H. destruct (schemas_of (dbs w) x); [exact H2|congruence].
Qed.

Lemma mem_add t s ss : mem t (if mem s ss then ss else ss ++ [s]) = mem t ss || str_eqb t s.
Proof.
  destruct (mem s ss) eqn:M; [|rewrite mem_app, mem_single; reflexivity].
  destruct (str_eqb_spec t s) as [->|]; [rewrite M|rewrite orb_false_r]; reflexivity.
Qed.

Lemma create_schema_spec D Sc w d s : wfw w -> db_exists w d = true -> Sc d s ->
  exists w1, create_schema_if_not_exists w d s = Some w1 /\ wfw w1 /\ extends D Sc w w1 /\ schema_exists w1 d s = true.
Proof.
  intros [W1 W2] E Sds. unfold create_schema_if_not_exists. rewrite E. eexists. split; [reflexivity|].
  unfold wfw, extends, schema_exists, db_exists in *. cbn [dbs attached].
  (* the attached databases are the same, so "databases stay" and "no new database" go by auto *)
  repeat split; try intros x; rewrite ?schemas_of_add; auto.
  - (* MAIN everywhere *) intros ss. destruct (schemas_of (dbs w) x) as [ss0|] eqn:Sx; [|discriminate].
    destruct (str_eqb d x); intros [= <-]; [rewrite mem_add, (W1 _ _ Sx); reflexivity|eauto].
  - (* attached databases are known *) intros H. apply W2 in H. destruct (schemas_of (dbs w) x); [destruct (str_eqb d x); discriminate|exact H].
  - (* schemas stay *) intros t [H1 H2]%andb_true_iff. rewrite H1. destruct (schemas_of (dbs w) x); [|discriminate].
    destruct (str_eqb d x); [rewrite mem_add, H2; reflexivity|exact H2].
  - (* the only new schema is d.s *) intros t [H1 H2]%andb_true_iff. rewrite H1. destruct (schemas_of (dbs w) x); [|discriminate].
    destruct (str_eqb_spec d x) as [<-|]; [|auto]. rewrite mem_add in H2.
    apply orb_true_iff in H2 as [H2|H2%str_eqb_eq]; subst; auto.
  - (* d.s exists *) rewrite E, str_eqb_refl. apply W2 in E. destruct (schemas_of (dbs w) d); [|congruence].
    rewrite mem_add, str_eqb_refl. apply orb_true_r.
Qed.

Record spec (w : world) (c : cfg) (w' : world) (s : session) : Prop := {
  sp_wf : wfw w';
  sp_reports : sdb s = option_map upper (database c) /\ ssch s = option_map upper (schema c);
  (* existing objects stay *)
  sp_keep_db : forall x, db_exists w x = true -> db_exists w' x = true;
  sp_keep_sch : forall x t, schema_exists w x t = true -> schema_exists w' x t = true;
  (* creates only what the options allow *)
  sp_new_db : forall x, db_exists w' x = true -> db_exists w x = true \/
                (create_db c = true /\ truthy (option_map upper (database c)) = Some x);
  sp_new_sch : forall x t, schema_exists w' x t = true -> schema_exists w x t = true \/
                (create_db c = true /\ truthy (option_map upper (database c)) = Some x /\ db_exists w x = false) \/
                (create_sch c = true /\ truthy (option_map upper (database c)) = Some x /\
                 truthy (option_map upper (schema c)) = Some t);
  (* current database / schema exactly when the objects exist *)
  sp_set : match truthy (option_map upper (database c)) with
           | None => db_set s = false /\ sch_set s = false /\ duck s = None
           | Some d =>
               db_set s = db_exists w' d /\
               match truthy (option_map upper (schema c)) with
               | None => sch_set s = false /\ duck s = (if db_set s then Some (d, s_main) else None)
               | Some t => sch_set s = schema_exists w' d t /\
                           duck s = (if sch_set s then Some (d, t) else if db_set s then Some (d, s_main) else None)
               end
           end;
}.

(* the first two stages of connect, with the auto-create flag b *)
Lemma create_db_stage D Sc (b : bool) w d : wfw w -> (b = true -> D d) -> (b = true -> db_exists w d = false -> forall t, Sc d t) ->
  exists w1, (if b && negb (db_exists w d) then attach_if_not_exists w d else Some w) = Some w1 /\ wfw w1 /\ extends D Sc w w1.
Proof.
  intros W Dd Sd. destruct (b && negb (db_exists w d)) eqn:B; [|eauto using extends_refl].
  apply andb_true_iff in B as [-> _]. apply attach_spec; auto.
Qed.

Lemma create_schema_stage D Sc (b : bool) w d (ot : option str) : wfw w -> (forall t, ot = Some t -> b = true -> Sc d t) ->
  exists w1, match ot with
             | Some t => if b && negb (schema_exists w d t) && db_exists w d then create_schema_if_not_exists w d t else Some w
             | None => Some w
             end = Some w1 /\ wfw w1 /\ extends D Sc w w1.
Proof.
  intros W Sdt. destruct ot as [t|]; [|eauto using extends_refl].
  destruct (b && negb (schema_exists w d t) && db_exists w d) eqn:B; [|eauto using extends_refl].
  apply andb_true_iff in B as [[-> _]%andb_true_iff E].
  destruct (create_schema_spec D Sc w d t W E) as (w1 & ? & ? & ? & _); eauto.
Qed.

Theorem connect_spec : forall w c, wfw w -> exists w' s, connect w c = Some (w', s) /\ spec w c w' s.
Proof.
  intros w c W. unfold connect, set_schema.
  (* what the options allow to be created: the last disjuncts of sp_new_db and sp_new_sch, so that `extends D Sc w w2`
     is those two fields and the two sp_keep ones *)
  set (D := fun x => create_db c = true /\ truthy (option_map upper (database c)) = Some x).
  set (Sc := fun x t => (create_db c = true /\ truthy (option_map upper (database c)) = Some x /\ db_exists w x = false) \/
                       (create_sch c = true /\ truthy (option_map upper (database c)) = Some x /\
                        truthy (option_map upper (schema c)) = Some t)).
  destruct (truthy (option_map upper (database c))) as [d|] eqn:Td.
  2:{ (* no database requested: nothing happens *)
      eexists w, _. split; [reflexivity|]. constructor; cbn [sdb ssch db_set sch_set duck]; rewrite ?Td; auto. }
  destruct (create_db_stage D Sc (create_db c) w d W) as (w1 & -> & W1 & X1); [unfold D, Sc; auto..|].
  destruct (create_schema_stage D Sc (create_sch c) w1 d (truthy (option_map upper (schema c))) W1)
    as (w2 & -> & W2 & X2); [unfold Sc; auto|].
  destruct (extends_trans _ _ _ _ _ X1 X2) as (K & KS & N & NS).
  (* the three tests on w2; a database that exists has MAIN, so SET schema cannot fail *)
  pose proof (wf_main w2 d W2) as M.
  destruct (truthy (option_map upper (schema c))) as [t|] eqn:Ts; [destruct (schema_exists w2 d t) eqn:E2|].
  (* the schema exists, hence the database | no such schema | no schema asked for: in the last two, whether the database exists;
     where it does, M says MAIN is there *)
  1: pose proof (schema_exists_db _ _ _ E2) as Ed.
  2, 3: destruct (db_exists w2 d) eqn:Ed; rewrite ?M by reflexivity.
  (* five outcomes, the seven fields of spec in order; sp_reports and sp_set alone look at the session, which records the tests just made *)
  all: eexists w2, _; (split; [reflexivity|]); constructor; cbn [sdb ssch db_set sch_set duck]; rewrite ?Td, ?Ts, ?E2, ?Ed;
    [exact W2|auto|exact K|exact KS|exact N|exact NS|auto].
Qed.

Definition w0 : world := {| dbs := [(lit "DB1", builtin ++ [lit "S1"])]; attached := [] |}.
Example connect_nonvacuous :
  let c := {| database := Some (lit "db1"); schema := Some (lit "s2"); create_db := true; create_sch := true |} in
  match connect w0 c with
  | Some (w', s) => schema_exists w' (lit "DB1") (lit "S1") = true /\ schema_exists w' (lit "DB1") (lit "S2") = true /\
                    sdb s = Some (lit "DB1") /\ sch_set s = true /\ duck s = Some (lit "DB1", lit "S2")
  | None => False
  end.
Proof. vm_compute. repeat split. Qed.

Fixpoint all_ok (w : world) (cs : list cfg) : Prop :=
  match cs with
  | [] => True
  | c :: r => match connect w c with Some (w', _) => all_ok w' r | None => False end
  end.
