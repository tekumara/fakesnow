From FS Require Import Sexp Ident.
From Coq Require Import Lia.

Lemma up_flip c : up_c (flip_c c) = up_c c.
Proof.
  unfold up_c, flip_c, is_ascii_lower, is_ascii_upper.
  destruct ((97 <=? c) && (c <=? 122)) eqn:E1.
  - destruct ((97 <=? c - 32) && (c - 32 <=? 122)) eqn:E2; lia.
  - destruct ((65 <=? c) && (c <=? 90)) eqn:E3.
    + destruct ((97 <=? c + 32) && (c + 32 <=? 122)) eqn:E4; lia.
    + rewrite E1. reflexivity.
Qed.

(* upper-casing forgets the re-spelling: everything else in C02 rests on this *)
Lemma upper_recase mask s : upper (recase mask s) = upper s.
Proof.
  revert mask. induction s as [|c s IH]; intros [|b m]; try reflexivity.
  cbn. rewrite IH. destruct b; [rewrite up_flip|]; reflexivity.
Qed.

Lemma norm_respell m i : norm (respell m i) = norm i.
Proof. destruct i as [t [|]]; [reflexivity|apply upper_recase]. Qed.

Lemma norm_q_respell m q : norm_q (respell_q m q) = norm_q q.
Proof. destruct q; cbn; rewrite !norm_respell; reflexivity. Qed.

Lemma option_norm_respell m d : option_map norm (option_map (respell m) d) = option_map norm d.
Proof. destruct d; cbn; rewrite ?norm_respell; reflexivity. Qed.

Lemma norm_op_respell m o : norm_op (respell_op m o) = norm_op o.
Proof. destruct o; cbn; rewrite ?norm_respell, ?norm_q_respell, ?option_norm_respell; reflexivity. Qed.

Lemma up_not_lower c : is_ascii_lower (up_c c) = false.
Proof. unfold up_c, is_ascii_lower. destruct ((97 <=? c) && (c <=? 122)) eqn:E; lia. Qed.

Lemma upper_idem s : upper (upper s) = upper s.
Proof.
  unfold upper. rewrite map_map. apply map_ext. intros c. unfold up_c at 1. rewrite up_not_lower. reflexivity.
Qed.

Lemma ddl_status_quoted_l : forall s, Dml.ddl_status Dml.CreateTable s true = lit "Table " ++ s ++ lit " successfully created.".
Proof. reflexivity. Qed.

Definition ex_id (s : String.string) (q : bool) : ident := {| itext := lit s; iquoted := q |}.
Arguments ex_id s%string_scope q.
