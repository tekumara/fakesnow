From FS Require Import Sexp Ctx Common.

Lemma cget_cset_same l c x y : cget l c = Some y -> cget (cset l c x) c = Some x.
Proof. revert c. induction l as [|z l IH]; intros [|c]; cbn; try discriminate; auto. Qed.
Lemma cget_cset_other l c d x : c <> d -> cget (cset l c x) d = cget l d.
Proof.
  revert c d. induction l as [|y l IH]; intros [|c] [|d] H; cbn; try reflexivity; try congruence.
  apply IH. congruence.
Qed.
Lemma in_cset l c x k : In k (cset l c x) -> k = x \/ In k l.
Proof.
  revert c. induction l as [|y l IH]; intros [|c]; cbn; try tauto; [intros [<-|H]; auto|].
  intros [H|H%IH]; tauto.
Qed.

Lemma assoc_put_same {X} (l : list (name * X)) k v : assoc (put l k v) k = Some v.
Proof.
  induction l as [|[k' v'] l IH]; cbn; [rewrite str_eqb_refl; reflexivity|].
  destruct (str_eqb k' k) eqn:E; cbn; rewrite E; auto.
Qed.
Lemma assoc_app_none {X} (l : list (name * X)) k v : assoc l k = None -> assoc (l ++ [(k, v)]) k = Some v.
Proof.
  induction l as [|[k' v'] l IH]; cbn; [rewrite str_eqb_refl; reflexivity|].
  destruct (str_eqb k' k); [discriminate|exact IH].
Qed.
Lemma mem_app_last t ts : mem t (ts ++ [t]) = true.
Proof. unfold mem. rewrite existsb_app. cbn. rewrite str_eqb_refl. apply orb_true_r. Qed.

Definition ecode (e : Z) : Prop := e = 2003 \/ e = 2043.

Lemma engine_codes k e :
  (forall d s t, e_lookup k d s t = RErr e -> ecode e) /\
  (forall d s t, e_create_table k d s t = inr e -> ecode e) /\
  (forall d s t, e_drop_table k d s t = inr e -> ecode e) /\
  (forall d s, e_create_schema k d s = inr e -> ecode e) /\
  (forall d s, e_drop_schema k d s = inr e -> ecode e) /\
  (forall d, e_create_db k d = inr e -> ecode e) /\
  (forall d s, e_set_schema k d s = Some e -> ecode e).
Proof.
  unfold ecode, e_lookup, e_create_table, e_drop_table, e_create_schema, e_drop_schema, e_create_db, e_set_schema.
  repeat split; intros *; destruct (assoc k d) as [ss|]; try destruct (assoc ss s) as [ts|]; try destruct (mem t ts);
    intros [= <-]; auto.
Qed.

Lemma e_create_table_lookup k d s t k' : e_create_table k d s t = inl k' -> e_lookup k' d s t = RTable d s t.
Proof.
  unfold e_create_table, e_lookup. destruct (assoc k d) as [ss|]; [|discriminate].
  destruct (assoc ss s) as [ts|]; [|discriminate]. destruct (mem t ts); [discriminate|].
  intros [= <-]. rewrite !assoc_put_same, mem_app_last. reflexivity.
Qed.

(* the catalog after Reconnect d s (k2 in exec): database and schema are created if missing *)
Definition ensure (k : catalog) (d s : name) : catalog :=
  let k1 := match assoc k d with Some _ => k | None => k ++ [(d, [(s_main, [])])] end in
  match assoc k1 d with
  | Some ss => match assoc ss s with Some _ => k1 | None => put k1 d (ss ++ [(s, [])]) end
  | None => k1
  end.

Lemma ensure_exists k d s : e_set_schema (ensure k d s) d s = None.
Proof.
  unfold ensure. set (k1 := match assoc k d with Some _ => k | None => _ end).
  assert (exists ss, assoc k1 d = Some ss) as [ss A].
  { unfold k1. destruct (assoc k d) eqn:E; [eauto|]. rewrite (assoc_app_none _ _ _ E). eauto. }
  cbn zeta. rewrite A. unfold e_set_schema. destruct (assoc ss s) eqn:E; [rewrite A, E; reflexivity|].
  rewrite assoc_put_same, (assoc_app_none _ _ _ E). reflexivity.
Qed.

Lemma ensure_id k d s : e_set_schema k d s = None -> ensure k d s = k.
Proof.
  unfold e_set_schema, ensure. destruct (assoc k d) as [ss|] eqn:E; [|discriminate].
  cbn zeta. rewrite E. destruct (assoc ss s); [reflexivity|discriminate].
Qed.

Lemma e_lookup_exists k d s t : e_lookup k d s t = RTable d s t -> e_set_schema k d s = None.
Proof.
  unfold e_lookup, e_set_schema. destruct (assoc k d) as [ss|]; [|discriminate].
  destruct (assoc ss s); [reflexivity|discriminate].
Qed.

Lemma step_reconnect w ci c d s : cget (conns w) ci = Some c ->
  step w ci (Reconnect d s) =
  ({| cat := ensure (cat w) d s;
      conns := cset (conns w) ci {| cdb := Some d; csch := Some s; dset := true; sset := true; edb := d; esch := s |} |}, RUnit).
Proof. unfold step. intros ->. reflexivity. Qed.

Lemma with_cat_err w r w' e : with_cat w r = (w', RErr e) -> w' = w /\ r = inr e.
Proof. destruct r; intros [= <- <-]; auto. Qed.
Lemma with_cat_conns w r : conns (fst (with_cat w r)) = conns w.
Proof. destruct r; reflexivity. Qed.

Lemma exec_err w ci c o w' e : exec w ci c o = (w', RErr e) -> w' = w /\ ecode e.
Proof.
  destruct (engine_codes (cat w) e) as (L1 & L2 & L3 & L4 & L5 & L6 & L7).
  destruct o as [d|d s|d s|q|q|q|d|[d|] s| |d s]; cbn [exec]; try destruct (locate c q) as [[d s] t].
  - (* CREATE DATABASE *) intros [-> H]%with_cat_err; eauto.
  - (* CREATE SCHEMA *) intros [-> H]%with_cat_err; eauto.
  - (* DROP SCHEMA *) destruct (e_drop_schema _ _ _) eqn:E; intros [= <- <-]; eauto.
  - (* CREATE TABLE *) intros [-> H]%with_cat_err; eauto.
  - (* DROP TABLE *) intros [-> H]%with_cat_err; eauto.
  - (* a statement that must find its table *) intros [= <- H]; eauto.
  - (* USE DATABASE *) destruct (e_set_schema _ _ _) eqn:E; intros [= <- <-]; eauto.
  - (* USE SCHEMA d.s *) destruct (e_set_schema _ _ _) eqn:E; intros [= <- <-]; eauto.
  - (* USE SCHEMA s *) destruct (e_set_schema _ _ _) eqn:E; intros [= <- <-]; eauto.
  - (* CURRENT_DATABASE(), CURRENT_SCHEMA() *) discriminate.
  - (* a new session *) discriminate.
Qed.

(* no such connection, or a guard: an error and the same world; otherwise exec *)
Lemma step_cases w ci o :
  (exists e, step w ci o = (w, RErr e)) \/ (exists c, cget (conns w) ci = Some c /\ step w ci o = exec w ci c o).
Proof.
  unfold step. destruct (cget (conns w) ci) as [c|]; [|eauto].
  destruct (_ && _); [eauto|]. destruct (_ && _); eauto.
Qed.

(* what the fake reports is what the engine resolves names against *)
Definition Coh (c : conn) : Prop :=
  (dset c = true -> cdb c = Some (edb c)) /\
  (sset c = true -> dset c = true /\ csch c = Some (esch c)).

Definition is_some_eq (o : option name) (s : name) : bool :=
  match o with Some x => str_eqb s x | None => false end.
(* the statements inside the domain: USE DATABASE only on a connection without a schema;
   unqualified USE SCHEMA only with a current database; DROP SCHEMA only of a schema name that is
   nobody's current schema (fakesnow compares the name alone and resets only the dropper) *)
Definition dom (w : world) (ci : nat) (o : op) : bool :=
  match cget (conns w) ci with
  | None => true
  | Some c =>
      match o with
      | UseDb _ => negb (sset c) && match csch c with None => true | Some _ => false end
      | UseSchema None _ => dset c
      | DropSchema _ s => forallb (fun k => negb (is_some_eq (csch k) s) && negb (str_eqb s (esch k))) (conns w)
      | _ => true
      end
  end.

(* the issuer's context after a successful o: the only thing exec does to the connections *)
Definition ctx_of (c : conn) (o : op) : conn :=
  match o with
  | DropSchema _ s =>
      if is_some_eq (csch c) s
      then {| cdb := cdb c; csch := None; dset := dset c; sset := sset c; edb := edb c; esch := esch c |} else c
  | UseDb d => {| cdb := Some d; csch := csch c; dset := true; sset := sset c; edb := d; esch := s_main |}
  | UseSchema None s =>
      {| cdb := cdb c; csch := Some s; dset := dset c; sset := true; edb := orelse (cdb c) s_missing_db; esch := s |}
  | UseSchema (Some d) s | Reconnect d s =>
      {| cdb := Some d; csch := Some s; dset := true; sset := true; edb := d; esch := s |}
  | _ => c
  end.

Lemma exec_conns w ci c o :
  conns (fst (exec w ci c o)) = conns w \/ conns (fst (exec w ci c o)) = cset (conns w) ci (ctx_of c o).
Proof.
  destruct o as [d|d s|d s|q|q|q|d|[d|] s| |d s]; cbn [exec]; try destruct (locate c q) as [[d s] t];
    rewrite ?with_cat_conns; auto.
  1: (* DROP SCHEMA *) destruct (e_drop_schema _ _ _); auto.
  all: (* the three USE statements *) destruct (e_set_schema _ _ _); auto.
Qed.

Lemma coh_ctx_of w ci c o : cget (conns w) ci = Some c -> dom w ci o = true -> Coh c -> Coh (ctx_of c o).
Proof.
  intros G D [C1 C2]. unfold dom in D. rewrite G in D.
  destruct o as [d|d s|d s|q|q|q|d|[d|] s| |d s]; cbn [ctx_of]; try (split; assumption).
  - (* the dropper's own current schema is not s *)
    rewrite forallb_forall in D. apply nth_error_In, D, andb_true_iff in G as [G _].
    apply negb_true_iff in G. rewrite G. split; assumption.
  - (* USE DATABASE without a current schema: the second half of Coh is vacuous *)
    apply andb_true_iff in D as [D _]. apply negb_true_iff in D. split; cbn; [reflexivity|congruence].
  - split; cbn; auto.
  - (* the engine is given the reported database, which by coherence is its own *)
    split; cbn; auto. intros _. rewrite (C1 D). reflexivity.
  - split; cbn; auto.
Qed.

Lemma coh_step w ci o : (forall k, In k (conns w) -> Coh k) -> dom w ci o = true ->
  forall k, In k (conns (fst (step w ci o))) -> Coh k.
Proof.
  intros All D. destruct (step_cases w ci o) as [[e ->]|(c & G & ->)]; [exact All|].
  destruct (exec_conns w ci c o) as [-> | ->]; [exact All|].
  intros k [->|Hk]%in_cset; [|auto]. eapply coh_ctx_of; eauto using nth_error_In.
Qed.

(* along any history whose every step is inside the domain *)
Fixpoint all_dom (w : world) (h : list (nat * op)) : bool :=
  match h with
  | [] => true
  | (c, o) :: r => dom w c o && all_dom (fst (step w c o)) r
  end.
Fixpoint final (w : world) (h : list (nat * op)) : world :=
  match h with [] => w | (c, o) :: r => final (fst (step w c o)) r end.

(* the three kinds of statement that name a table: query/DML, CREATE TABLE, DROP TABLE *)
Definition with_q (kind : nat) (q : qname) : op :=
  match kind with O => Select q | S O => CreateTable q | _ => DropTable q end.

Lemma needs_with_q kind q :
  needs (with_q kind q) = match q with Q1 _ => (true, true) | Q2 _ _ => (true, false) | Q3 _ _ _ => (false, false) end.
Proof. destruct kind as [|[|kind]], q; reflexivity. Qed.

Lemma exec_locate w ci c kind q q' : locate c q = locate c q' -> exec w ci c (with_q kind q) = exec w ci c (with_q kind q').
Proof. intros E. destruct kind as [|[|kind]]; cbn [with_q exec]; rewrite E; reflexivity. Qed.

Definition k0 : catalog := [(lit "DB1", [(s_main, []); (lit "S1", [lit "T"]); (lit "S2", [])]); (lit "DB2", [(s_main, []); (lit "S1", [])])].
Definition c0 : conn := {| cdb := Some (lit "DB1"); csch := Some (lit "S1"); dset := true; sset := true; edb := lit "DB1"; esch := lit "S1" |}.
Definition cnone : conn := {| cdb := None; csch := None; dset := false; sset := false; edb := s_memory; esch := s_main |}.

Example ctx_nonvacuous :
  let w := {| cat := k0; conns := [c0; cnone] |} in
  let h := [(0, UseSchema None (lit "S2")); (1, UseSchema (Some (lit "DB2")) (lit "S1")); (0, CreateTable (Q1 (lit "U")));
            (1, Select (Q3 (lit "DB1") (lit "S2") (lit "U"))); (1, CreateSchema None (lit "S3")); (0, UseSchema (Some (lit "DB2")) (lit "S3"))]%nat in
  all_dom w h = true /\ Coh c0 /\ Coh cnone /\
  snd (step (final w h) 0 Current) = RCtx (lit "DB2") (lit "S3") /\
  snd (step w 1 (Select (Q1 (lit "T")))) = RErr 90105.
Proof. vm_compute. repeat split; intros; try discriminate; auto. Qed.

(* the unchanged code outside the domain: USE DATABASE keeps reporting the old schema *)
Example coh_refuted_use_database :
  let w := {| cat := k0; conns := [c0] |} in
  exists k, In k (conns (fst (step w 0 (UseDb (lit "DB2"))))) /\ ~ Coh k.
Proof.
  eexists. split; [left; reflexivity|]. intros [_ C2]. cbn in C2. destruct (C2 eq_refl) as [_ E]. discriminate.
Qed.

(* ... and dropping the current schema leaves schema_set and the engine's setting behind *)
Example coh_refuted_drop_current_schema :
  let w := {| cat := k0; conns := [c0] |} in
  exists k, In k (conns (fst (step w 0 (DropSchema None (lit "S1"))))) /\ ~ Coh k.
Proof.
  eexists. split; [left; reflexivity|]. intros [_ C2]. cbn in C2. destruct (C2 eq_refl) as [_ E]. discriminate.
Qed.
