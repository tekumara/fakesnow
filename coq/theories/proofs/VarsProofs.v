From FS Require Import Sexp Vars Common.
From Coq Require Import Lia.

(* texts as segments: literal text without '$', or a reference $word *)
Inductive seg := Lit (s : str) | Ref (w : str).

Definition render1 (g : seg) : str := match g with Lit s => s | Ref w => dollar :: w end.
Definition render (segs : list seg) : str := concat (map render1 segs).

Definition dollar_free (s : str) : bool := forallb (fun c => negb (c =? dollar)) s.
Definition word (s : str) : bool := forallb is_word s.
Definition nonnil (s : str) : bool := match s with [] => false | _ => true end.

(* a reference is a maximal word: it is followed by the end of the text or by literal text that
   starts with a non-word character (so `$a$b` and `$a` directly followed by a letter are outside) *)
Fixpoint wf (segs : list seg) : bool :=
  match segs with
  | [] => true
  | Lit s :: r => dollar_free s && wf r
  | Ref w :: r =>
      word w && nonnil w &&
      match r with
      | [] => true
      | Lit (c :: _) :: _ => negb (is_word c)
      | _ => false
      end && wf r
  end.

(* one-pass specification: every reference stands for the value of the variable of that name *)
Definition expand (vs : vars) (segs : list seg) : list seg :=
  map (fun g => match g with
                | Ref w => match lookup vs w with Some v => Lit v | None => Ref w end
                | x => x end) segs.

Lemma word_not_dollar c : is_word c = true -> (c =? dollar) = false.
Proof.
  unfold is_word, is_ascii_lower, is_ascii_upper, is_digit, dollar. intros H.
  destruct (Z.eqb_spec c 36) as [->|]; [discriminate H|reflexivity].
Qed.

Lemma boundary_next r : match r with [] => true | Lit (c :: _) :: _ => negb (is_word c) | _ => false end = true ->
  boundary (render r) = true.
Proof.
  destruct r as [|[ [|c s] | w] r']; cbn; try discriminate; auto.
Qed.

Lemma take_word_app w rest : word w = true -> boundary rest = true -> take_word (w ++ rest) = w.
Proof.
  induction w as [|c w IH]; cbn [app word forallb]; intros W B.
  - destruct rest as [|c r]; [reflexivity|]. cbn in *. apply negb_true_iff in B. rewrite B. reflexivity.
  - apply andb_true_iff in W as [W1 W2]. cbn [take_word]. rewrite W1. f_equal. auto.
Qed.

(* text already produced, put in front of a result (an error stays the error) *)
Definition prefix_res (l : str) (r : str + str) : str + str := match r with inl o => inl (l ++ o) | inr e => inr e end.

Lemma prefix_res_app a b r : prefix_res a (prefix_res b r) = prefix_res (a ++ b) r.
Proof. destruct r; cbn; [rewrite app_assoc|]; reflexivity. Qed.

Lemma xgo_lit vs l rest : dollar_free l = true -> xgo vs O false (l ++ rest) = prefix_res l (xgo vs O false rest).
Proof.
  induction l as [|c l IH]; cbn [app dollar_free forallb]; intros H.
  - destruct (xgo vs 0 false rest); reflexivity.
  - apply andb_true_iff in H as [H1 H2]. apply negb_true_iff in H1.
    cbn [xgo]. rewrite H1, (IH H2). exact (prefix_res_app [c] l _).
Qed.

Lemma xgo_skip vs w rest : xgo vs (length w) false (w ++ rest) = xgo vs O false rest.
Proof. induction w as [|c w IH]; [reflexivity|exact IH]. Qed.

Lemma xgo_ref vs w rest : word w = true -> nonnil w = true -> boundary rest = true ->
  xgo vs O false (dollar :: w ++ rest) =
  match lookup vs w with Some v => prefix_res v (xgo vs O false rest) | None => inr (upper (dollar :: w)) end.
Proof.
  intros Ww NN B. cbn [xgo]. rewrite Z.eqb_refl. cbn [negb andb].
  assert (Bw : boundary (w ++ rest) = false).
  { destruct w as [|c w']; [discriminate|]. cbn in Ww. apply andb_true_iff in Ww as [Wc _]. cbn. rewrite Wc. reflexivity. }
  rewrite Bw, (take_word_app w rest Ww B), xgo_skip. reflexivity.
Qed.

Definition is_ref (g : seg) : bool := match g with Ref _ => true | _ => false end.
Definition defined (vs : vars) (g : seg) : bool :=
  match g with Ref w => match lookup vs w with Some _ => true | None => false end | _ => true end.

(* the one-pass specification with its error case: the first reference to an undefined variable raises
   "Session variable '$NAME' does not exist" *)
Fixpoint inline_segs (vs : vars) (segs : list seg) : str + str :=
  match segs with
  | [] => inl []
  | Lit s :: r => prefix_res s (inline_segs vs r)
  | Ref w :: r => match lookup vs w with Some v => prefix_res v (inline_segs vs r) | None => inr (upper (dollar :: w)) end
  end.

Theorem inline_text_segs vs segs : wf segs = true -> inline_text vs (render segs) = inline_segs vs segs.
Proof.
  unfold inline_text. induction segs as [|[s|w] segs IH]; cbn [wf inline_segs]; intros W; [reflexivity| |].
  - apply andb_true_iff in W as [D W]. change (render (Lit s :: segs)) with (s ++ render segs).
    rewrite (xgo_lit vs s _ D), (IH W). reflexivity.
  - apply andb_true_iff in W as [W Wr]. apply andb_true_iff in W as [W Nx]. apply andb_true_iff in W as [Ww NN].
    change (render (Ref w :: segs)) with (dollar :: w ++ render segs).
    rewrite (xgo_ref vs w _ Ww NN (boundary_next _ Nx)), (IH Wr). reflexivity.
Qed.

Lemma inline_segs_app vs pre post : forallb (defined vs) pre = true ->
  inline_segs vs (pre ++ post) = prefix_res (render (expand vs pre)) (inline_segs vs post).
Proof.
  induction pre as [|[s|w] pre IH]; cbn [forallb defined app inline_segs expand map]; intros D.
  - destruct (inline_segs vs post); reflexivity.
  - rewrite (IH D). apply prefix_res_app.
  - destruct (lookup vs w); [|discriminate D]. rewrite (IH D). apply prefix_res_app.
Qed.

(* a value containing '$' signs and things that look like references is inserted as it is *)
Example value_with_dollars_l :
  inline_text [(lit "P", lit "'$HOME/x $p'"); (lit "HOME", lit "7")] (lit "select $p, $home") = inl (lit "select '$HOME/x $p', 7").
Proof. vm_compute. reflexivity. Qed.

Example inline_nonvacuous :
  let vs := [(lit "VAR1", lit "5"); (lit "VAR10", lit "'x y'"); (lit "A_B", lit "1 + 2")] in
  let segs := [Lit (lit "select "); Ref (lit "var10"); Lit (lit ", "); Ref (lit "Var1"); Lit (lit "+"); Ref (lit "a_b")] in
  wf segs = true /\ forallb (defined vs) segs = true /\
  inline_text vs (render segs) = inl (lit "select 'x y', 5+1 + 2").
Proof. vm_compute. repeat split. Qed.

(* what every scanner with an accumulator does: it moves a prefix m of the text behind acc *)
Definition extends (acc s p rest : str) : Prop := exists m, p = acc ++ m /\ s = m ++ rest.

Lemma extends_none acc s : extends acc s acc s.
Proof. exists []. rewrite app_nil_r. auto. Qed.

Lemma extends_step acc m s p rest : extends (acc ++ m) s p rest -> extends acc (m ++ s) p rest.
Proof. intros (m' & -> & ->). exists (m ++ m'). rewrite !app_assoc. auto. Qed.

Lemma extends_nonempty c acc s p rest : extends (c :: acc) s p rest ->
  c :: acc ++ s = p ++ rest /\ (length rest < length (c :: acc ++ s))%nat.
Proof. intros (m & -> & ->). rewrite <- app_assoc. split; [reflexivity|]. cbn. rewrite !app_length. lia. Qed.

Lemma scan_quoted_extends q bs : forall s acc p rest, scan_quoted q bs s acc = Some (p, rest) -> extends acc s p rest.
Proof.
  (* scan_quoted eats two characters at an escape and at a doubled quote, so the recursion is on any tail *)
  fix IH 1. intros [|x r] acc p rest; cbn [scan_quoted]; [discriminate|].
  destruct (bs && (x =? c_bs)).
  - destruct r as [|y r']; [discriminate|]. intros H. apply (extends_step acc [x; y]), IH, H.
  - destruct (negb (x =? q)); [intros H; apply (extends_step acc [x]), IH, H|].
    destruct r as [|y r']; [intros [= <- <-]; apply (extends_step acc [x]), extends_none|].
    destruct (y =? q); intros H.
    + apply (extends_step acc [x; y]), IH, H.
    + injection H as <- <-. apply (extends_step acc [x]), extends_none.
Qed.

Lemma find2_extends a b : forall s acc p rest, find2 a b s acc = Some (p, rest) -> extends acc s p rest.
Proof.
  induction s as [|x r IH]; intros acc p rest; cbn [find2]; [discriminate|].
  destruct r as [|y r']; [discriminate|]. destruct ((x =? a) && (y =? b)); intros H.
  - injection H as <- <-. apply (extends_step acc [x; y]), extends_none.
  - apply (extends_step acc [x]), IH, H.
Qed.

Lemma to_eol_extends : forall s acc p rest, to_eol s acc = (p, rest) -> extends acc s p rest.
Proof.
  induction s as [|x r IH]; intros acc p rest; cbn [to_eol]; [intros [= <- <-]; apply extends_none|].
  destruct (x =? c_nl); intros H; [injection H as <- <-; apply extends_none|apply (extends_step acc [x]), IH, H].
Qed.

Lemma protect_here_prefix s p rest : protect_here s = Some (p, rest) -> s = p ++ rest /\ (length rest < length s)%nat.
Proof.
  destruct s as [|c r]; cbn [protect_here]; [discriminate|].
  destruct (c =? c_sq); [intros H%scan_quoted_extends%extends_nonempty; exact H|].
  destruct (c =? c_dq); [intros H%scan_quoted_extends%extends_nonempty; exact H|].
  destruct r as [|d r']; [discriminate|].
  destruct ((c =? dollar) && (d =? dollar)); [intros H%find2_extends%extends_nonempty; exact H|].
  destruct ((c =? c_dash) && (d =? c_dash)); [intros [= H%to_eol_extends%extends_nonempty]; exact H|].
  destruct ((c =? c_slash) && (d =? c_star)); [intros H%find2_extends%extends_nonempty; exact H|discriminate].
Qed.

Lemma split_fuel_S f c r acc : split_fuel (S f) (c :: r) acc =
  match protect_here (c :: r) with
  | Some (p, rest) => (false, acc) :: (true, p) :: split_fuel f rest []
  | None => split_fuel f r (acc ++ [c])
  end.
Proof. reflexivity. Qed.

Lemma split_fuel_concat : forall fuel s acc, concat (map snd (split_fuel fuel s acc)) = acc ++ s.
Proof.
  induction fuel as [|f IH]; intros s acc; [cbn; apply app_nil_r|].
  destruct s as [|c r]; [cbn; rewrite !app_nil_r; reflexivity|]. rewrite split_fuel_S.
  destruct (protect_here (c :: r)) as [[p rest]|] eqn:E.
  - apply protect_here_prefix in E as [-> _]. cbn [map snd concat]. rewrite IH. reflexivity.
  - rewrite IH, <- app_assoc. reflexivity.
Qed.

(* more fuel than characters is all that matters: each round consumes at least one character *)
Lemma split_fuel_irrelevant : forall f g s acc, (length s < f)%nat -> (length s < g)%nat -> split_fuel f s acc = split_fuel g s acc.
Proof.
  induction f as [|f IH]; intros [|g] s acc Hf Hg; try lia.
  destruct s as [|c r]; [reflexivity|]. rewrite !split_fuel_S. cbn [length] in Hf, Hg.
  destruct (protect_here (c :: r)) as [[p rest]|] eqn:E; [|apply IH; lia].
  apply protect_here_prefix in E as [_ L]. cbn [length] in L. do 2 f_equal. apply IH; lia.
Qed.

(* split_protected with the text read so far (split_protected s is split_from [] s); its two equations are free of fuel *)
Definition split_from (acc s : str) : list (bool * str) := split_fuel (S (length s)) s acc.

Lemma split_from_piece acc s p rest : protect_here s = Some (p, rest) ->
  split_from acc s = (false, acc) :: (true, p) :: split_protected rest.
Proof.
  intros E. destruct s as [|c r]; [discriminate E|]. unfold split_from. rewrite split_fuel_S, E.
  apply protect_here_prefix in E as [_ L]. do 2 f_equal. apply split_fuel_irrelevant; [exact L|lia].
Qed.

Lemma split_from_step acc c r : protect_here (c :: r) = None -> split_from acc (c :: r) = split_from (acc ++ [c]) r.
Proof. intros N. unfold split_from. cbn [length]. rewrite split_fuel_S, N. reflexivity. Qed.

(* no protected piece starts at any position of pre when it is read in front of rest *)
Fixpoint unprotected (pre rest : str) : Prop :=
  match pre with [] => True | c :: r => protect_here (c :: r ++ rest) = None /\ unprotected r rest end.

Lemma split_from_unprotected : forall pre rest acc, unprotected pre rest -> split_from acc (pre ++ rest) = split_from (acc ++ pre) rest.
Proof.
  induction pre as [|c r IH]; intros rest acc U; [rewrite app_nil_r; reflexivity|].
  destruct U as [N U]. cbn [app]. rewrite (split_from_step _ _ _ N), (IH rest _ U), <- app_assoc. reflexivity.
Qed.

Lemma split_protected_plain s : unprotected s [] -> split_protected s = [(false, s)].
Proof. intros U. pose proof (split_from_unprotected s [] [] U) as H. rewrite app_nil_r in H. exact H. Qed.

Lemma split_protected_piece pre p post : unprotected pre (p ++ post) -> protect_here (p ++ post) = Some (p, post) ->
  split_protected (pre ++ p ++ post) = (false, pre) :: (true, p) :: split_protected post.
Proof. intros U E. exact (eq_trans (split_from_unprotected pre _ [] U) (split_from_piece pre _ p post E)). Qed.

(* any complete protected piece - a literal, a quoted identifier, a $$string$$, a comment - is handed on character for character,
   whatever stands before and after it, and the text before it is processed exactly as if it stood alone *)
Theorem piece_protected vs pre p post : unprotected pre (p ++ post) -> protect_here (p ++ post) = Some (p, post) ->
  inline_variables vs (pre ++ p ++ post) =
  match inline_text vs pre with
  | inr e => inr e
  | inl p' => match inline_variables vs post with inl o => inl (p' ++ p ++ o) | inr e => inr e end
  end.
Proof.
  intros U E. unfold inline_variables. rewrite (split_protected_piece pre p post U E). cbn [inline_pieces].
  destruct (inline_text vs pre); [|reflexivity]. destruct (inline_pieces vs (split_protected post)); reflexivity.
Qed.

(* text in which no protected piece can start: no quote, no '-', no '/', no '$$' *)
Fixpoint plainb (s : str) : bool :=
  match s with
  | [] => true
  | c :: r => negb (c =? c_sq) && negb (c =? c_dq) && negb (c =? c_dash) && negb (c =? c_slash)
              && (negb (c =? dollar) || match r with d :: _ => negb (d =? dollar) | [] => true end) && plainb r
  end.

Lemma plain_unprotected pre rest : plainb pre = true ->
  match rest with d :: _ => negb (d =? dollar) | [] => true end = true -> unprotected pre rest.
Proof.
  intros P Hd. induction pre as [|c r IH]; [exact I|]. cbn [plainb] in P. apply andb_true_iff in P as [P Pr].
  split; [|exact (IH Pr)]. cbn [protect_here].
  destruct (c =? c_sq), (c =? c_dq), (c =? c_dash), (c =? c_slash); try discriminate P. cbn in P |- *.
  destruct (r ++ rest) as [|d t] eqn:E; [reflexivity|]. destruct (c =? dollar); [|reflexivity].
  (* c is a '$': the character after it, in r or at the head of rest, is not one *)
  enough (D : negb (d =? dollar) = true) by (apply negb_true_iff in D; rewrite D; reflexivity).
  destruct r as [|d' r']; cbn in E; [subst rest; exact Hd|injection E as <- _; exact P].
Qed.

(* a complete single-quoted literal without quotes or backslashes inside is one protected piece *)
Lemma scan_quoted_clean : forall body acc rest, forallb (fun c => negb (c =? c_sq) && negb (c =? c_bs)) body = true ->
  (match rest with d :: _ => d <> c_sq | [] => True end) ->
  scan_quoted c_sq true (body ++ c_sq :: rest) acc = Some (acc ++ body ++ [c_sq], rest).
Proof.
  induction body as [|x r IH]; intros acc rest B Hr.
  - cbn. destruct rest as [|d t]; [reflexivity|]. apply Z.eqb_neq in Hr. rewrite Hr. reflexivity.
  - cbn [forallb] in B. apply andb_true_iff in B as [Bx Br]. apply andb_true_iff in Bx as [B1 B2]. apply negb_true_iff in B2.
    cbn [app scan_quoted andb]. rewrite B2, B1, (IH _ _ Br Hr), <- !app_assoc. reflexivity.
Qed.

Definition sq_literal (body : str) : str := c_sq :: body ++ [c_sq].

Lemma protect_here_sq_literal body post : forallb (fun c => negb (c =? c_sq) && negb (c =? c_bs)) body = true ->
  (match post with d :: _ => d <> c_sq | [] => True end) ->
  protect_here (sq_literal body ++ post) = Some (sq_literal body, post).
Proof.
  intros B Hp. unfold sq_literal. cbn [app protect_here]. rewrite Z.eqb_refl, <- app_assoc.
  exact (scan_quoted_clean body [c_sq] post B Hp).
Qed.

(* the reported defect, for EVERY set of variables: select 'cost $5' is executed as written
   (the only '$' stands inside the protected piece, so the variables are never looked at) *)
Example cost_literal_untouched_l : forall vs, inline_variables vs (lit "select 'cost $5'") = inl (lit "select 'cost $5'").
Proof. intros vs. reflexivity. Qed.

Lemma sget_sset_other st c c' v : c <> c' -> sget (sset st c v) c' = sget st c'.
Proof.
  unfold sget. revert c c'. induction st as [|x st IH]; intros [|c] [|c'] H; cbn; try reflexivity; try congruence.
  apply IH. congruence.
Qed.

Definition conn_of (o : vop) : nat := match o with VSet c _ _ | VUnset c _ | VUse c _ => c end.

(* what is left after UNSET n was there before and is not n: a later reference to n is undefined again *)
Lemma in_vunset vs n x : NoDup (map fst vs) -> In x (map fst (vunset vs n)) -> In x (map fst vs) /\ x <> n.
Proof.
  induction vs as [|[n' v'] vs IH]; cbn; intros ND H; [tauto|].
  inversion ND as [|? ? Nin ND']; subst.
  destruct (str_eqb_spec n' n) as [->|N].
  - split; [auto|]. intros ->. exact (Nin H).
  - destruct H as [<-|H]; [auto|]. destruct (IH ND' H). auto.
Qed.

Lemma vunset_keeps_nodup vs n : NoDup (map fst vs) -> NoDup (map fst (vunset vs n)).
Proof.
  induction vs as [|[n' v'] vs IH]; cbn; intros ND; [constructor|].
  inversion ND as [|? ? Nin ND']; subst.
  destruct (str_eqb n' n); [exact ND'|]. cbn. constructor; [|auto].
  intros H. apply Nin. exact (proj1 (in_vunset vs n n' ND' H)).
Qed.

(* Names reach Variables._set upper-cased (sqlglot normalises the unquoted identifier of SET), so no name holds a lower-case letter *)
Definition canon (s : str) : bool := forallb (fun c => negb (is_ascii_lower c)) s.

Lemma ci_eqs_lower a : forall b, ci_eqs a b = str_eqb (lower a) (lower b).
Proof. induction a as [|x a IH]; intros [|y b]; cbn [ci_eqs lower map str_eqb]; [reflexivity..|]. rewrite IH. reflexivity. Qed.

Lemma ci_eqs_refl a : ci_eqs a a = true.
Proof. rewrite ci_eqs_lower. apply str_eqb_refl. Qed.

Lemma ci_eqs_common a b c : ci_eqs a c = true -> ci_eqs b c = true -> ci_eqs a b = true.
Proof. rewrite !ci_eqs_lower. intros H1 H2. apply str_eqb_eq in H1, H2. rewrite H1, H2. apply str_eqb_refl. Qed.

Lemma ci_eqs_canon a : forall b, canon a = true -> canon b = true -> ci_eqs a b = true -> a = b.
Proof.
  induction a as [|x a IH]; intros [|y b]; cbn; try discriminate; [reflexivity|].
  intros Ha Hb H. apply andb_true_iff in Ha as [Hx Ha]. apply andb_true_iff in Hb as [Hy Hb]. apply andb_true_iff in H as [Hxy H].
  f_equal; [|exact (IH b Ha Hb H)].
  unfold ci_eqc, lo_c, is_ascii_upper, is_ascii_lower in *.
  destruct ((65 <=? x) && (x <=? 90)) eqn:Ux; destruct ((65 <=? y) && (y <=? 90)) eqn:Uy; lia.
Qed.

(* no stored name differs from n in letter case only *)
Definition only_spelling (vs : vars) (n : str) : bool := forallb (fun n' => implb (ci_eqs n' n) (str_eqb n' n)) (map fst vs).

Lemma canon_only_spelling vs n : forallb canon (map fst vs) = true -> canon n = true -> only_spelling vs n = true.
Proof.
  unfold only_spelling. rewrite !forallb_forall. intros H Hn n' I.
  destruct (ci_eqs n' n) eqn:E; [|reflexivity]. rewrite (ci_eqs_canon n' n (H n' I) Hn E). apply str_eqb_refl.
Qed.

Example set_lookup_nonvacuous :
  let vs := [(lit "A", lit "1"); (lit "B_2", lit "x")] in
  forallb canon (map fst vs) = true /\ canon (lit "B_2") = true /\ ci_eqs (lit "B_2") (lit "b_2") = true /\
  lookup (vset vs (lit "B_2") (lit "y")) (lit "b_2") = Some (lit "y") /\ lookup (vset vs (lit "B_2") (lit "y")) (lit "a") = Some (lit "1").
Proof. vm_compute. repeat split. Qed.
