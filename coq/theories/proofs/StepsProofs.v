(* Proofs about Steps.v (C18, C19). Whatever holds under every schedule goes through one lemma, run_sched_inv: a predicate on
   (engine, sessions) that a turn of any session keeps is kept by run_sched, with or without the lock. The invariants below
   (the connect ladder, the inserts, what is durable, the per-session invariants of MERGE) state their per-turn fact only. *)
From FS Require Import Sexp Steps Common.
From Coq Require Import Lia Permutation.

#[local] Arguments has_db : simpl never.
#[local] Arguments booted : simpl never.

Lemma upd_length {X} (l : list X) : forall i x, length (upd l i x) = length l.
Proof. induction l as [|y l IH]; intros [|i] x; cbn; auto. Qed.

Lemma upd_same {X} (l : list X) : forall i x, nth_error l i = Some x -> upd l i x = l.
Proof. induction l as [|y l IH]; intros [|i] x H; cbn in *; try congruence. f_equal. auto. Qed.

Lemma nth_error_upd {X} (l : list X) : forall i x j y, nth_error (upd l i x) j = Some y ->
  j = i /\ y = x \/ j <> i /\ nth_error l j = Some y.
Proof.
  induction l as [|z l IH]; intros [|i] x [|j] y H; cbn in *; try discriminate; auto; [left; split; congruence|].
  destruct (IH _ _ _ _ H) as [[-> ->]|[N E]]; auto.
Qed.

Lemma Forall_upd {X} (P : X -> Prop) (l : list X) : forall i x, Forall P l -> P x -> Forall P (upd l i x).
Proof. induction l as [|y l IH]; intros [|i] x F Px; cbn; inversion F; auto. Qed.

Lemma exists_upd_same {X} (P : X -> Prop) (l : list X) : forall i y x, nth_error l i = Some y -> P x -> Exists P (upd l i x).
Proof. induction l as [|z l IH]; intros [|i] y x N Px; cbn in *; try discriminate; [left|right]; eauto. Qed.

Lemma exists_upd_other {X} (P : X -> Prop) (l : list X) : forall i y x, Exists P l -> nth_error l i = Some y -> ~ P y -> Exists P (upd l i x).
Proof.
  induction l as [|z l IH]; intros [|i] y x E N NP; cbn in *; try discriminate; inversion E; subst; eauto.
  injection N as ->. contradiction.
Qed.

Section Invariant.
  Variable P : eng * list sess -> Prop.
  Hypothesis P_turn : forall e ss i x, P (e, ss) -> nth_error ss i = Some x ->
    P (fst (fst (turn e x)), upd ss i (snd (fst (turn e x)))).

  Lemma sched_step_inv lk st i : P st -> P (sched_step lk st i).
  Proof.
    destruct st as [e ss]. intros I. unfold sched_step. destruct (nth_error ss i) as [x|] eqn:N; [|exact I].
    destruct (lk && wants_lock x && negb (lock_free_for ss i)); [exact I|].
    pose proof (P_turn e ss i x I N) as T. destruct (turn e x) as [[e' x'] c]. exact T.
  Qed.

  Lemma run_sched_inv lk sch : forall st, P st -> P (run_sched lk sch st).
  Proof. unfold run_sched. induction sch as [|i sch IH]; intros st I; [exact I|]. apply IH, sched_step_inv, I. Qed.
End Invariant.

Lemma run_sched_length lk sch st : length (snd (run_sched lk sch st)) = length (snd st).
Proof. apply (run_sched_inv (fun st' => length (snd st') = length (snd st))); [|reflexivity]. intros e ss i x H _. cbn. rewrite upd_length. exact H. Qed.

Lemma key_eqb_spec a b : reflect (a = b) (key_eqb a b).
Proof. apply (list_eqb_spec str_eqb); [exact str_eqb_spec|intros [|] [|]; reflexivity]. Qed.

Lemma key_eqb_refl a : key_eqb a a = true.
Proof. destruct (key_eqb_spec a a); congruence. Qed.
Lemma key_eqb_neq a b : a <> b -> key_eqb a b = false.
Proof. destruct (key_eqb_spec a b); congruence. Qed.

Lemma klook_kput {X} (l : list (key * X)) k v k' :
  klook (kput l k v) k' = if key_eqb k k' then Some v else klook l k'.
Proof.
  induction l as [|[k0 w] l IH]; cbn; [reflexivity|].
  destruct (key_eqb_spec k0 k) as [->|N]; cbn; [destruct (key_eqb k k'); reflexivity|].
  rewrite IH. destruct (key_eqb_spec k0 k'), (key_eqb_spec k k'); congruence.
Qed.

Lemma klook_kput_eq {X} (l : list (key * X)) k v : klook (kput l k v) k = Some v.
Proof. rewrite klook_kput, key_eqb_refl. reflexivity. Qed.

Lemma klook_app {X} (l l' : list (key * X)) k :
  klook (l ++ l') k = match klook l k with Some v => Some v | None => klook l' k end.
Proof. induction l as [|[k0 w] l IH]; cbn; [reflexivity|]. destruct (key_eqb k0 k); auto. Qed.

Lemma tlook_tput l i v j : tlook (tput l i v) j = if Nat.eqb i j then Some v else tlook l j.
Proof.
  induction l as [|[a w] l IH]; cbn; [reflexivity|].
  destruct (Nat.eqb_spec a i) as [->|N]; cbn; [destruct (Nat.eqb i j); reflexivity|].
  rewrite IH. destruct (Nat.eqb_spec a j), (Nat.eqb_spec i j); congruence.
Qed.

Lemma tlook_tput_eq l i v : tlook (tput l i v) i = Some v.
Proof. rewrite tlook_tput, Nat.eqb_refl. reflexivity. Qed.

(* C18: the disk holds the effects of the calls made so far. `eng_le e e'`: whatever is durable in e is durable in e',
   every row in its place *)
Definition prefix_of (a b : list Z) : Prop := exists t, b = a ++ t.
Definition eng_le (e e' : eng) : Prop :=
  (forall d, has_db e d = true -> has_db e' d = true) /\
  (forall d, booted e d = true -> booted e' d = true) /\
  (forall d s, has_sch e d s = true -> has_sch e' d s = true) /\
  (forall k rows, klook (tbls e) k = Some rows -> exists rows', klook (tbls e') k = Some rows' /\ prefix_of rows rows') /\
  (forall k c, klook (cmts e) k = Some c -> exists c', klook (cmts e') k = Some c').

Lemma prefix_refl a : prefix_of a a.
Proof. exists []. rewrite app_nil_r. reflexivity. Qed.
Lemma prefix_trans a b c : prefix_of a b -> prefix_of b c -> prefix_of a c.
Proof. intros [t ->] [u ->]. exists (t ++ u). rewrite app_assoc. reflexivity. Qed.

Lemma eng_le_refl e : eng_le e e.
Proof. repeat split; eauto using prefix_refl. Qed.
Lemma eng_le_trans a b c : eng_le a b -> eng_le b c -> eng_le a c.
Proof.
  intros (A1 & A2 & A3 & A4 & A5) (B1 & B2 & B3 & B4 & B5). repeat split; auto.
  - intros k rows H. destruct (A4 _ _ H) as (r1 & H1 & P1). destruct (B4 _ _ H1) as (r2 & H2 & P2). eauto using prefix_trans.
  - intros k c0 H. destruct (A5 _ _ H) as (c1 & H1). eauto.
Qed.

Lemma tbls_le (t t' : list (key * list Z)) :
  (forall k rows, klook t k = Some rows -> exists rows', klook t' k = Some rows' /\ prefix_of rows rows') -> True.
Proof. auto. Qed.

(* The engine changes in three ways only: a list grows at its end, a database gets its `booted` flag, `kput` extends the rows
   of an existing table or sets a comment. *)
Lemma existsb_app_l {X} (f : X -> bool) l l' : existsb f l = true -> existsb f (l ++ l') = true.
Proof. intros H. rewrite existsb_app, H. reflexivity. Qed.

Lemma existsb_boot (f : str * bool -> bool) d l : (forall n b, f (n, b) = true -> f (n, true) = true) ->
  existsb f l = true -> existsb f (map (fun p => if str_eqb (fst p) d then (fst p, true) else p) l) = true.
Proof.
  intros M. induction l as [|[n b] l IH]; cbn; [auto|]. rewrite !orb_true_iff. intros [H|H]; [left|auto].
  destruct (str_eqb n d); eauto.
Qed.

Lemma klook_kput_prefix (l : list (key * list Z)) k r t : klook l k = Some r ->
  forall k0 r0, klook l k0 = Some r0 -> exists r', klook (kput l k (r ++ t)) k0 = Some r' /\ prefix_of r0 r'.
Proof.
  intros H k0 r0 H0. rewrite klook_kput. destruct (key_eqb_spec k k0) as [<-|_]; [|eauto using prefix_refl].
  exists (r ++ t). split; [reflexivity|]. exists t. congruence.
Qed.

Lemma klook_kput_some {X} (l : list (key * X)) k v k0 c : klook l k0 = Some c -> exists c', klook (kput l k v) k0 = Some c'.
Proof. intros H. rewrite klook_kput. destruct (key_eqb k k0); eauto. Qed.

Lemma klook_app_some {X} (l l' : list (key * X)) k v : klook l k = Some v -> klook (l ++ l') k = Some v.
Proof. intros H. rewrite klook_app, H. reflexivity. Qed.

(* split on every test `exec` makes *)
Ltac exec_cases := repeat match goal with |- context [match ?x with _ => _ end] => destruct x eqn:?; cbn end.

Lemma exec_mono e c : eng_le e (fst (exec e c)).
Proof.
  destruct c; cbn; exec_cases; try apply eng_le_refl; unfold eng_le, has_db, booted, has_sch; cbn; repeat split.
  (* Boot: `has_db` looks at the name, `booted` at the name and the flag, and a flag is only ever raised *)
  all: try (intros d0; apply existsb_boot; intros n b; rewrite ?andb_true_iff; tauto).
  (* the other calls: a field that did not change (prefix_refl, or the hypothesis itself); a list that grew at its end
     (existsb_app_l for dbs and schs, klook_app_some for tbls); rows appended or a comment set by kput (klook_kput_prefix, klook_kput_some) *)
  all: eauto using prefix_refl, existsb_app_l, klook_app_some, klook_kput_prefix, klook_kput_some.
Qed.

Lemma turn_idle e x : todo x = [] -> turn e x = (e, x, None).
Proof. unfold turn. intros ->. reflexivity. Qed.

(* a turn is at most one engine call, then `settle` *)
Lemma turn_cases e x :
  fst (turn e x) = (e, settle x) \/
  exists o rest c, todo x = o :: rest /\ fetch o (pc x) = Some c /\
    fst (turn e x) = (fst (exec e c), settle {| todo := todo x; pc := advance o (pc x) (snd (exec e c)); last := snd (exec e c); done := done x |}).
Proof.
  unfold turn. destruct (todo x) as [|o rest] eqn:T; [left; unfold settle; rewrite T; reflexivity|].
  destruct (fetch o (pc x)) as [c|] eqn:F; [right|left; reflexivity].
  exists o, rest, c. destruct (exec e c). auto.
Qed.

Lemma turn_mono e x : eng_le e (fst (fst (turn e x))).
Proof. destruct (turn_cases e x) as [E|(o & rest & c & _ & _ & E)]; rewrite E; [apply eng_le_refl|apply exec_mono]. Qed.

Lemma run_sched_mono lk sch st : eng_le (fst st) (fst (run_sched lk sch st)).
Proof.
  apply (run_sched_inv (fun st' => eng_le (fst st) (fst st'))); [|apply eng_le_refl].
  intros e ss i x H _. exact (eng_le_trans _ _ _ H (turn_mono e x)).
Qed.

Lemma sched_step_nolock e ss j : sched_step false (e, ss) j =
  match nth_error ss j with Some y => (fst (fst (turn e y)), upd ss j (snd (fst (turn e y)))) | None => (e, ss) end.
Proof. unfold sched_step. destruct (nth_error ss j) as [y|]; [|reflexivity]. cbn. destruct (turn e y) as [[? ?] ?]. reflexivity. Qed.

Section Connects.
  Variables d s : str.

  Definition cop : op := Connect d s.

  (* what the engine must already provide for a session at each program point *)
  Definition req (e : eng) (p : nat) : Prop :=
    match p with
    | 0 | 1 => True
    | 2 | 3 | 4 | 5 => has_db e d = true
    | 6 | 7 => has_db e d = true /\ has_sch e d s = true
    | _ => False
    end%nat.

  Definition good (e : eng) (x : sess) : Prop :=
    (todo x = [cop] /\ done x = [] /\ req e (pc x)) \/
    (todo x = [] /\ done x = [AOk] /\ has_db e d = true /\ has_sch e d s = true).

  Definition at_boot (x : sess) : Prop := todo x = [cop] /\ pc x = 2%nat.

  (* a session that found the database attached skips the bootstrap, so "attached" does not imply "bootstrapped";
     but whoever attached it is then about to bootstrap it *)
  Definition Inv (st : eng * list sess) : Prop :=
    Forall (good (fst st)) (snd st) /\
    (has_db (fst st) d = true -> booted (fst st) d = false -> Exists at_boot (snd st)).

  Definition e_attach (e : eng) : eng := {| dbs := dbs e ++ [(d, false)]; schs := schs e ++ [[d; s_main]]; tbls := tbls e; cmts := cmts e; temps := temps e |}.
  Definition e_boot (e : eng) : eng :=
    {| dbs := map (fun p => if str_eqb (fst p) d then (fst p, true) else p) (dbs e); schs := schs e; tbls := tbls e; cmts := cmts e; temps := temps e |}.
  Definition e_mksch (e : eng) : eng := {| dbs := dbs e; schs := schs e ++ [[d; s]]; tbls := tbls e; cmts := cmts e; temps := temps e |}.

  Lemma attach_db e : has_db (e_attach e) d = true.
  Proof. unfold has_db, e_attach. cbn [dbs]. rewrite existsb_app. cbn. rewrite str_eqb_refl. apply orb_true_r. Qed.

  Lemma boot_db e : has_db e d = true -> has_db (e_boot e) d = true.
  Proof. apply existsb_boot. auto. Qed.
  Lemma boot_booted e : has_db e d = true -> booted (e_boot e) d = true.
  Proof.
    unfold has_db, booted, e_boot. cbn [dbs]. induction (dbs e) as [|[n b] l IH]; cbn; [discriminate|].
    destruct (str_eqb n d) eqn:E; cbn; rewrite E; cbn; [reflexivity|]. exact IH.
  Qed.
  Lemma boot_sch e : has_sch (e_boot e) d s = has_sch e d s.
  Proof. reflexivity. Qed.

  Lemma mksch_sch e : has_sch (e_mksch e) d s = true.
  Proof. unfold has_sch, e_mksch. cbn [schs]. rewrite existsb_app. cbn. rewrite !str_eqb_refl. apply orb_true_r. Qed.
  Lemma mksch_booted e : booted (e_mksch e) d = booted e d.
  Proof. reflexivity. Qed.

  Lemma good_mono e e' x : eng_le e e' -> good e x -> good e' x.
  Proof.
    intros (A & _ & B & _). specialize (A d). specialize (B d s).
    intros [(T & D & R)|(T & D & H1 & H2)]; [left|right]; repeat split; auto.
    destruct (pc x) as [|[|[|[|[|[|[|[|p]]]]]]]]; cbn in *; tauto.
  Qed.

  Lemma req_below e p : req e p -> (p < 8)%nat.
  Proof. do 8 (destruct p as [|p]; [lia|]). contradiction. Qed.

  Definition csess (p : nat) (la : ans) : sess := {| todo := [cop]; pc := p; last := la; done := [] |}.

  Lemma good_cases e x : good e x -> (exists p la, x = csess p la /\ req e p) \/ todo x = [].
  Proof.
    intros [(T & D & R)|(T & _)]; [left|right; exact T]. destruct x as [td p la dn]. cbn in *. subst.
    exists p, la. split; [reflexivity|exact R].
  Qed.

  (* own turns still needed: a connect in progress is below program point 8 (req_below: QSchema at 6 finds the schema, so the
     fallback to `main` at 8 and 9 is never reached), each own turn moves it up, and the one at 7 ends it *)
  Definition rank (x : sess) : nat := match todo x with [] => 0 | _ => 8 - pc x end%nat.

  Definition turn_ok (e : eng) (p : nat) (e' : eng) (x' : sess) : Prop :=
    good e' x' /\ (rank x' < 8 - p)%nat /\
    (p = 2%nat -> booted e' d = true) /\
    (has_db e d = false -> has_db e' d = true -> at_boot x').

  (* the session moves on to program point p': one premise for each part of `turn_ok` *)
  Lemma moves_to e p e' p' la : req e' p' -> (p < p')%nat -> (p = 2%nat -> booted e' d = true) ->
    (has_db e d = false -> has_db e' d = true -> p' = 2%nat) -> turn_ok e p e' (csess p' la).
  Proof.
    intros R L B A. split; [left; repeat split; exact R|]. apply req_below in R.
    split; [cbn -[Nat.sub]; lia|]. split; [exact B|]. intros H H'. split; [reflexivity|exact (A H H')].
  Qed.

  Lemma same_engine e p p' la : req e p' -> (p < p')%nat -> p <> 2%nat -> turn_ok e p e (csess p' la).
  Proof. intros R L N. apply moves_to; [exact R|exact L|contradiction|congruence]. Qed.

  Lemma turn_good e p la : req e p -> turn_ok e p (fst (fst (turn e (csess p la)))) (snd (fst (turn e (csess p la)))).
  Proof.
    destruct p as [|[|[|[|[|[|[|[|p]]]]]]]]; cbn [req]; try contradiction; intros R; unfold turn; cbn.
    - (* QDb *) destruct (has_db e d) eqn:Hd; cbn; apply same_engine; cbn; auto; lia.
    - (* Attach *) destruct (has_db e d) eqn:Hd; cbn; [apply same_engine; cbn; auto; lia|]. fold (e_attach e).
      apply moves_to; [apply attach_db|lia|discriminate|reflexivity].
    - (* Boot *) rewrite R. cbn. fold (e_boot e).
      apply moves_to; [exact (boot_db e R)|lia|intros _; exact (boot_booted e R)|congruence].
    - (* QSchema *) destruct (has_sch e d s) eqn:Hs; cbn; apply same_engine; cbn; auto; lia.
    - (* QDb again *) rewrite R. cbn. apply same_engine; cbn; auto; lia.
    - (* MkSchema *) rewrite R. destruct (has_sch e d s) eqn:Hs; cbn; [apply same_engine; cbn; auto; lia|]. fold (e_mksch e).
      apply moves_to; [exact (conj R (mksch_sch e))|lia|discriminate|congruence].
    - (* QSchema: always true here *) destruct R as [R1 R2]. rewrite R2. cbn. apply same_engine; cbn; auto; lia.
    - (* SetSchema: the connect is complete *) destruct R as [R1 R2]. rewrite R2. cbn.
      split; [right; auto|]. split; [cbn; lia|]. split; [discriminate|congruence].
  Qed.

  Lemma inv_turn e ss i x : Inv (e, ss) -> nth_error ss i = Some x ->
    Inv (fst (fst (turn e x)), upd ss i (snd (fst (turn e x)))).
  Proof.
    intros [G J] N. cbn [fst snd] in *.
    destruct (good_cases e x (proj1 (Forall_forall _ _) G x (nth_error_In _ _ N))) as [(p & la & -> & R)|T].
    2: { rewrite (turn_idle e x T). cbn [fst snd]. rewrite (upd_same _ _ _ N). split; assumption. }
    destruct (turn_good e p la R) as (G' & _ & B & A). pose proof (turn_mono e (csess p la)) as M.
    destruct (turn e (csess p la)) as [[e' x'] c]. cbn [fst snd] in *. split; cbn [fst snd].
    - apply Forall_upd; [|exact G']. revert G. apply Forall_impl. intros z. apply good_mono, M.
    - intros Hd' Hb'. destruct (has_db e d) eqn:Hd.
      + (* the database was there before: the witness stays unless it was the acting session, which then has bootstrapped *)
        apply exists_upd_other with (y := csess p la); [apply J; [reflexivity|]|exact N|].
        * destruct (booted e d) eqn:Hb; [|reflexivity]. destruct M as (_ & M & _). rewrite (M d Hb) in Hb'. discriminate.
        * intros [_ P2]. rewrite (B P2) in Hb'. discriminate.
      + (* the acting session has just attached it *) apply exists_upd_same with (y := csess p la); auto.
  Qed.

  Lemma inv_init n : Inv (e0, map mk_sess (repeat [cop] n)).
  Proof. split; [|discriminate]. induction n; cbn; constructor; [left; repeat split|assumption]. Qed.

  (* once nobody is inside a connect, nobody is about to bootstrap *)
  Lemma inv_done e ss : Inv (e, ss) -> all_done ss = true -> ss <> [] ->
    has_db e d = true /\ booted e d = true /\ has_sch e d s = true /\ Forall (fun x => done x = [AOk]) ss.
  Proof.
    intros [G J] AD NE. cbn [fst snd] in *.
    assert (F : Forall (fun x => todo x = [] /\ done x = [AOk] /\ has_db e d = true /\ has_sch e d s = true) ss).
    { unfold all_done in AD. rewrite forallb_forall in AD. rewrite Forall_forall in *. intros x Hx. specialize (AD x Hx).
      destruct (G x Hx) as [(T & _)|H]; [rewrite T in AD; discriminate|exact H]. }
    destruct ss as [|x0 ss']; [congruence|]. pose proof (Forall_inv F) as (_ & _ & Hd & Hs).
    repeat split; auto.
    - (* bootstrapped: else somebody would still be about to do it *)
      destruct (booted e d) eqn:Hb; [reflexivity|]. destruct (proj1 (Exists_exists _ _) (J Hd eq_refl)) as (z & Hz & T & _).
      rewrite Forall_forall in F. destruct (F z Hz) as [T' _]. congruence.
    - (* every connect answered success *) revert F. apply Forall_impl. tauto.
  Qed.

  Lemma turn_rank e x : good e x -> (rank (snd (fst (turn e x))) <= rank x - 1)%nat.
  Proof.
    intros G. destruct (good_cases e x G) as [(p & la & -> & R)|T].
    - destruct (turn_good e p la R) as (_ & L & _). change (rank (csess p la)) with (8 - p)%nat. lia.
    - rewrite (turn_idle e x T). unfold rank. cbn [fst snd]. rewrite T. lia.
  Qed.

  Lemma rank0_done e x : good e x -> rank x = 0%nat -> todo x = [].
  Proof.
    intros G Z. destruct (good_cases e x G) as [(p & la & -> & R)|T]; [|exact T]. apply req_below in R. cbn -[Nat.sub] in Z. lia.
  Qed.

  (* the turns a schedule gives session i *)
  Fixpoint occ (i : nat) (sch : list nat) : nat :=
    match sch with [] => 0 | j :: r => (if Nat.eqb j i then 1 else 0) + occ i r end%nat.

  Lemma init_rank n : forall i x, nth_error (map mk_sess (repeat [cop] n)) i = Some x -> (i < n)%nat /\ rank x = 8%nat.
  Proof.
    induction n as [|n IH]; intros [|i] x; cbn; try discriminate; [intros [= <-]; split; [lia|reflexivity]|].
    intros H. destruct (IH i x H). split; [lia|assumption].
  Qed.

  Lemma connects_progress sch : forall st, Inv st ->
    (forall i x, nth_error (snd st) i = Some x -> (rank x <= occ i sch)%nat) ->
    all_done (snd (run_sched false sch st)) = true.
  Proof.
    induction sch as [|j sch IH]; intros [e ss] I B; cbn [snd] in B.
    - apply forallb_forall. intros x Hx. destruct (In_nth_error _ _ Hx) as [i N].
      rewrite (rank0_done e x); [reflexivity| |specialize (B i x N); cbn in B; lia].
      exact (proj1 (Forall_forall _ _) (proj1 I) x Hx).
    - apply (IH (sched_step false (e, ss) j)); [apply sched_step_inv; [exact inv_turn|exact I]|].
      intros i x N. rewrite sched_step_nolock in N. pose proof (B i) as Bi. cbn [occ] in Bi.
      destruct (nth_error ss j) as [y|] eqn:Nj; cbn [snd] in N; [apply nth_error_upd in N; destruct N as [[-> ->]|[Ne N]]|].
      + (* its own turn *) specialize (Bi y Nj). rewrite Nat.eqb_refl in Bi.
        pose proof (turn_rank e y (proj1 (Forall_forall _ _) (proj1 I) y (nth_error_In _ _ Nj))). lia.
      + (* another session's turn *) specialize (Bi x N). destruct (Nat.eqb_spec j i); [congruence|lia].
      + (* nobody's turn *) specialize (Bi x N). destruct (Nat.eqb_spec j i); [congruence|lia].
  Qed.
End Connects.

(* the scenarios of the examples and refutations of Props_C18 and Props_C19 *)
Definition DB : str := lit "DB1".
Definition SC : str := lit "S1".
Definition TK : key := [DB; SC; lit "T"].
Definition setup : list op := [Connect DB SC].
Definition is_torn (a : ans) : bool := match a with AMeta true None => true | _ => false end.
Definition TX : key := [lit "DBX"; s_main; lit "TX"].

Fixpoint pending_vals (k : key) (ops : list op) : list Z :=
  match ops with
  | Insert k' v :: r => if key_eqb k' k then v :: pending_vals k r else pending_vals k r
  | _ :: r => pending_vals k r
  | [] => []
  end.

Section Inserts.
  Variable k : key.

  Definition ins_only (x : sess) : Prop :=
    pc x = 0%nat /\ Forall (fun o => exists v, o = Insert k v) (todo x) /\ Forall (fun a => a = AOk) (done x).
  Definition pend (ss : list sess) : list Z := flat_map (fun x => pending_vals k (todo x)) ss.

  Lemma pend_upd ss : forall i x x', nth_error ss i = Some x ->
    forall v, pending_vals k (todo x) = v :: pending_vals k (todo x') ->
    Permutation (v :: pend (upd ss i x')) (pend ss).
  Proof.
    unfold pend. induction ss as [|y ss IH]; intros [|i] x x' N v E; cbn in *; try discriminate.
    - injection N as ->. rewrite E. reflexivity.
    - eapply perm_trans; [apply Permutation_middle|]. apply Permutation_app_head. eapply IH; eauto.
  Qed.

  Lemma pend_done ss : all_done ss = true -> pend ss = [].
  Proof.
    unfold pend, all_done. induction ss as [|y ss IH]; intros AD; [reflexivity|]. cbn in *.
    apply andb_true_iff in AD as [A1 A2]. destruct (todo y); [|discriminate]. cbn. apply IH. exact A2.
  Qed.

  Lemma pending_inserts vs : pending_vals k (map (Insert k) vs) = vs.
  Proof. induction vs as [|v vs IH]; cbn; [reflexivity|]. rewrite key_eqb_refl, IH. reflexivity. Qed.

  (* the rows of the table and the values still to be inserted make up `total`, whatever the interleaving *)
  Definition InvI (total : list Z) (st : eng * list sess) : Prop :=
    Forall ins_only (snd st) /\ exists rows, klook (tbls (fst st)) k = Some rows /\ Permutation (rows ++ pend (snd st)) total.

  Lemma invI_turn total e ss i x : InvI total (e, ss) -> nth_error ss i = Some x ->
    InvI total (fst (fst (turn e x)), upd ss i (snd (fst (turn e x)))).
  Proof.
    intros (F & rows & Lk & P) N. cbn [fst snd] in *.
    destruct (proj1 (Forall_forall _ _) F x (nth_error_In _ _ N)) as (Pc & Ops & Dn).
    destruct x as [[|o rest] p la dn]; cbn in Pc, Ops, Dn; subst p.
    - rewrite turn_idle by reflexivity. cbn [fst snd]. rewrite (upd_same _ _ _ N). split; eauto.
    - inversion Ops as [|? ? [v ->] Ops']; subst. unfold turn. cbn. rewrite Lk. cbn. split.
      + apply Forall_upd; [exact F|]. repeat split; cbn; auto. apply Forall_app. split; [exact Dn|repeat constructor].
      + exists (rows ++ [v]). split; [apply klook_kput_eq|].
        rewrite <- app_assoc. cbn [app]. eapply perm_trans; [|exact P]. apply Permutation_app_head.
        eapply pend_upd; [exact N|]. cbn. rewrite key_eqb_refl. reflexivity.
  Qed.

  Lemma invI_init e rows (scripts : list (list Z)) : klook (tbls e) k = Some rows ->
    InvI (rows ++ concat scripts) (e, map (fun vs => mk_sess (map (Insert k) vs)) scripts).
  Proof.
    intros Lk. split; cbn [fst snd].
    - apply Forall_forall. intros x Hx. apply in_map_iff in Hx as (vs & <- & _). repeat split; cbn; auto.
      apply Forall_forall. intros o Ho. apply in_map_iff in Ho as (v & <- & _). eauto.
    - exists rows. split; [exact Lk|]. apply Permutation_app_head. unfold pend.
      induction scripts as [|vs r IH]; cbn; [reflexivity|]. rewrite pending_inserts. apply Permutation_app_head, IH.
  Qed.

  Lemma invI_done total e ss : InvI total (e, ss) ->
    Forall (fun x => Forall (fun a => a = AOk) (done x)) ss /\
    (all_done ss = true -> exists rows', klook (tbls e) k = Some rows' /\ Permutation rows' total).
  Proof.
    intros (F & rows & Lk & P). cbn [fst snd] in *. split; [revert F; apply Forall_impl; intros x (_ & _ & D); exact D|].
    intros AD. exists rows. split; [exact Lk|]. rewrite (pend_done ss AD), app_nil_r in P. exact P.
  Qed.
End Inserts.

Lemma firstn_le_app {X} n n' (l : list X) : (n <= n')%nat -> exists t, firstn n' l = firstn n l ++ t.
Proof.
  intros H. exists (skipn n (firstn n' l)). rewrite <- (firstn_skipn n (firstn n' l)) at 1.
  rewrite firstn_firstn, Nat.min_l by exact H. reflexivity.
Qed.

Lemma fetch_tx k vs b p c : fetch (TxInserts k vs b) p = Some c ->
  c = TxBegin \/ (exists v, c = TxStage k v) \/ c = (if b then CommitRows k vs else TxRollback).
Proof.
  destruct p as [|i]; cbn; [intros [= <-]; auto|]. destruct (nth_error vs i); [intros [= <-]; eauto|].
  destruct (Nat.eqb i (length vs)); [intros [= <-]; auto|discriminate].
Qed.

(* Invariants that speak of one session at a time: a condition May on what each script may still contain (closed under
   dropping finished operations) and a relation Q between each session and the engine *)
Section PerSession.
  Variable May : nat -> op -> Prop.
  Variable Q : eng -> nat -> sess -> Prop.

  Definition SInv (st : eng * list sess) : Prop :=
    forall j x, nth_error (snd st) j = Some x -> Forall (May j) (todo x) /\ Q (fst st) j x.

  (* Q says nothing of a session between operations; the session's own call establishes it; a call of another session keeps it *)
  Hypothesis Q_start : forall e j x, pc x = 0%nat -> Q e j x.
  Hypothesis Q_call : forall e j x o rest c, todo x = o :: rest -> May j o -> fetch o (pc x) = Some c -> Q e j x ->
    Q (fst (exec e c)) j {| todo := todo x; pc := advance o (pc x) (snd (exec e c)); last := snd (exec e c); done := done x |}.
  Hypothesis Q_frame : forall e i x j o p c, i <> j -> May j o -> fetch o p = Some c -> Q e i x -> Q (fst (exec e c)) i x.

  Lemma settle_sinv e j x : Forall (May j) (todo x) /\ Q e j x -> Forall (May j) (todo (settle x)) /\ Q e j (settle x).
  Proof.
    unfold settle. destruct (todo x) as [|o rest] eqn:T; [rewrite T; auto|]. destruct (fetch o (pc x)); [rewrite T; auto|].
    intros [F _]. split; [exact (Forall_inv_tail F)|apply Q_start; reflexivity].
  Qed.

  Lemma sinv_turn e ss i x : SInv (e, ss) -> nth_error ss i = Some x ->
    SInv (fst (fst (turn e x)), upd ss i (snd (fst (turn e x)))).
  Proof.
    intros I N j y Hy. cbn [fst snd] in *. destruct (I i x N) as [Fx Qx].
    apply nth_error_upd in Hy as [[-> ->]|[Ne Hy]].
    - (* the acting session *)
      destruct (turn_cases e x) as [E|(o & rest & c & T & F & E)]; rewrite E; apply settle_sinv; [auto|].
      cbn [todo]. split; [exact Fx|]. rewrite T in Fx. exact (Q_call e i x o rest c T (Forall_inv Fx) F Qx).
    - (* another session: unchanged itself, it sees the engine unchanged or after a call of session i *)
      destruct (I j y Hy) as [Fy Qy]. split; [exact Fy|].
      destruct (turn_cases e x) as [E|(o & rest & c & T & F & E)]; rewrite E; [exact Qy|].
      rewrite T in Fx. exact (Q_frame e j y i o (pc x) c Ne (Forall_inv Fx) F Qy).
  Qed.

  Theorem sinv_run lk sch st : SInv st -> SInv (run_sched lk sch st).
  Proof. apply run_sched_inv. exact sinv_turn. Qed.

  Lemma sinv_init e scripts : (forall j ops, nth_error scripts j = Some ops -> Forall (May j) ops) -> SInv (e, map mk_sess scripts).
  Proof.
    intros W j x H. cbn [fst snd] in *. rewrite nth_error_map in H. destruct (nth_error scripts j) as [ops|] eqn:E; [|discriminate].
    injection H as <-. split; [exact (W j ops E)|apply Q_start; reflexivity].
  Qed.
End PerSession.

(* MERGE (StepsMerge.v): every MERGE of a script is tagged with the session that runs it *)
Definition op_sid_ok (j : nat) (o : op) : bool := match o with Merge sid _ _ => Nat.eqb sid j | _ => true end.
Definition script_ok (j : nat) (ops : list op) : Prop := Forall (fun o => op_sid_ok j o = true) ops.

Definition MT1 : key := [DB; SC; lit "T1"].
Definition MS1 : key := [DB; SC; lit "S1"].
Definition MT2 : key := [DB; SC; lit "T2"].
Definition MS2 : key := [DB; SC; lit "S2"].
Definition merge_setup : list op :=
  [Connect DB SC; CreateTable MT1 None; CreateTable MS1 None; CreateTable MT2 None; CreateTable MS2 None; Insert MS1 1; Insert MS2 2].
Definition merge_sched : list nat := repeat 0%nat 40 ++ repeat 1%nat 5 ++ repeat 2%nat 5 ++ [1; 1; 2; 2]%nat.
