From FS Require Import Sexp Codec CodecProofs Split.

(* statements built from plain text (no quote, double quote, -, /, $ or ;) and string literals with
   ARBITRARY content, spelled the way sqlglot's Snowflake generator spells them *)
Inductive chunk := Plain (l : str) | Str (s : str).

Definition plain_c (c : Z) : bool :=
  negb ((c =? 39) || (c =? 34) || (c =? 45) || (c =? 47) || (c =? 36) || (c =? 59)).
Definition chunk_ok (k : chunk) : bool := match k with Plain l => forallb plain_c l | Str _ => true end.
Definition render1 (k : chunk) : str := match k with Plain l => l | Str s => sf_gen s end.
Definition render (st : list chunk) : str := concat (map render1 st).

(* at a chunk boundary the automaton is in code, possibly just after a closing quote *)
Definition boundary (s : state) : Prop := s = Code \/ s = SQQ.

(* from a state in P the automaton swallows t whole: it cuts nothing, appends t to the current piece and ends in a state in Q *)
Definition keeps (P Q : state -> Prop) (t : str) : Prop :=
  forall s c d, P s -> exists s', Q s' /\
    scan {| stt := s; cur := c; done := d |} t = {| stt := s'; cur := c ++ t; done := d |}.

Lemma keeps_nil P : keeps P P [].
Proof. intros s c d H. exists s. cbn. rewrite app_nil_r. auto. Qed.

Lemma keeps_app P Q R t u : keeps P Q t -> keeps Q R u -> keeps P R (t ++ u).
Proof.
  intros T U s c d H. destruct (T s c d H) as (s1 & H1 & E1). destruct (U s1 (c ++ t) d H1) as (s2 & H2 & E2).
  exists s2. split; [exact H2|]. unfold scan in *. rewrite fold_left_app, E1, E2, app_assoc. reflexivity.
Qed.

Lemma keeps_char (P Q : state -> Prop) x s' : (forall s, P s -> delta s x = (s', false)) -> Q s' -> keeps P Q [x].
Proof. intros D H' s c d H. exists s'. split; [exact H'|]. cbn. unfold feed. cbn [stt]. rewrite (D s H). reflexivity. Qed.

Lemma keeps_flat_map {X} P (f : X -> str) xs : (forall x, In x xs -> keeps P P (f x)) -> keeps P P (flat_map f xs).
Proof.
  induction xs as [|x xs IH]; intros H; cbn [flat_map]; [apply keeps_nil|].
  apply (keeps_app P P); [apply H; left; reflexivity|apply IH; intros y I; apply H; right; exact I].
Qed.

Lemma plain_delta x s : plain_c x = true -> boundary s -> delta s x = (Code, false).
Proof.
  unfold plain_c. intros H [-> | ->]; cbn [delta]; unfold code_delta;
    repeat (destruct (x =? _); [discriminate H|]); reflexivity.
Qed.

Lemma keeps_plain l : forallb plain_c l = true -> keeps boundary boundary l.
Proof.
  induction l as [|x l IH]; cbn [forallb]; intros H; [apply keeps_nil|]. apply andb_true_iff in H as [Hx Hl].
  apply (keeps_app _ boundary _ [x] l); [|exact (IH Hl)].
  apply (keeps_char _ _ _ Code); [intros s B; exact (plain_delta x s Hx B)|left; reflexivity].
Qed.

(* inside a literal: whatever its content - semicolons, quotes, backslashes, comment markers - the
   automaton stays inside the literal and cuts nothing *)
Lemma keeps_spelled e x : sf_spells e x -> keeps (eq SQ) (eq SQ) e.
Proof.
  intros [(-> & N1 & N2)|(p & -> & _)].
  - apply Z.eqb_neq in N1, N2. unfold bs, q in N1, N2.
    apply (keeps_char _ _ _ SQ); [intros s <-; cbn [delta]; rewrite N1, N2|]; reflexivity.
  - apply (keeps_app _ (eq SQEsc) _ [bs] [p]).
    + apply (keeps_char _ _ _ SQEsc); [intros s <-|]; reflexivity.
    + apply (keeps_char _ _ _ SQ); [intros s <-|]; reflexivity.
Qed.

Lemma keeps_str s : keeps boundary boundary (sf_gen s).
Proof.
  (* sf_gen s is [q] ++ flat_map sf_gen_c s ++ [q]: into the literal, through its body, out again *)
  apply (keeps_app _ (eq SQ) _ [q]); [|apply (keeps_app _ (eq SQ))].
  - apply (keeps_char _ _ _ SQ); [intros ? [-> | ->]|]; reflexivity.
  - apply keeps_flat_map. intros x _. exact (keeps_spelled _ x (sf_gen_c_spells x)).
  - apply (keeps_char _ _ _ SQQ); [intros ? <-; reflexivity|right; reflexivity].
Qed.

Lemma keeps_stmt st : forallb chunk_ok st = true -> keeps boundary boundary (render st).
Proof.
  intros Ok. unfold render. rewrite <- flat_map_concat_map. apply keeps_flat_map. intros k I.
  apply (proj1 (forallb_forall _ _) Ok) in I. destruct k as [l|s]; [exact (keeps_plain l I)|apply keeps_str].
Qed.

Lemma feed_semicolon s c d : boundary s ->
  feed {| stt := s; cur := c; done := d |} 59 = {| stt := Code; cur := []; done := d ++ [c] |}.
Proof. intros [-> | ->]; reflexivity. Qed.

Definition join (stmts : list (list chunk)) : str := concat (map (fun st => render st ++ [59]) stmts).

Lemma scan_joined ts : (forall t, In t ts -> keeps boundary boundary t) -> forall d,
  scan {| stt := Code; cur := []; done := d |} (concat (map (fun t => t ++ [59]) ts)) =
  {| stt := Code; cur := []; done := d ++ ts |}.
Proof.
  induction ts as [|t ts IH]; intros K d; [cbn; rewrite app_nil_r; reflexivity|].
  destruct (K t (or_introl eq_refl) Code [] d (or_introl eq_refl)) as (s' & B & E).
  unfold scan in *. cbn [map concat]. rewrite !fold_left_app, E. cbn [fold_left]. rewrite (feed_semicolon _ _ _ B).
  rewrite IH by (intros u I; apply K; right; exact I). rewrite <- app_assoc. reflexivity.
Qed.

Section ExecFacts.
  Variables world stmt result pat : Type.
  Variable exec : world -> stmt -> world * option result.
  Variable matches : pat -> stmt -> bool.
  Variable success : result.
  Notation exec_nop := (exec_nop world stmt result pat exec matches success).
  Notation execute_string := (execute_string world stmt result pat exec matches success).

  Fixpoint one_by_one (pats : list pat) (w : world) (ss : list stmt) : world * list result :=
    match ss with
    | [] => (w, [])
    | s :: r => match exec_nop pats w s with
                | (w', Some x) => let '(wf, xs) := one_by_one pats w' r in (wf, x :: xs)
                | (w', None) => (w', [])
                end
    end.

  Lemma execute_string_app pats pre post : forall w,
    execute_string pats w (pre ++ post) =
    let '(w1, xs, ok) := execute_string pats w pre in
    if ok then let '(w2, ys, ok') := execute_string pats w1 post in (w2, xs ++ ys, ok') else (w1, xs, false).
  Proof.
    induction pre as [|p pre IH]; intros w; cbn [app Split.execute_string].
    - destruct (execute_string pats w post) as [[w2 ys] ok']. reflexivity.
    - destruct (exec_nop pats w p) as [w' [x|]]; [|reflexivity]. rewrite IH.
      destruct (execute_string pats w' pre) as [[w1 xs] [|]]; [|reflexivity].
      destruct (execute_string pats w1 post) as [[w2 ys] ok']. reflexivity.
  Qed.
End ExecFacts.

Example split_nonvacuous :
  split (lit "select 'a;b\';c' ; select 2 -- x;y" ++ [10] ++ lit "; select $$q;r$$; /* ; */ select ""i;j""") =
  Some [lit "select 'a;b\';c' "; lit " select 2 -- x;y" ++ [10]; lit " select $$q;r$$"; lit " /* ; */ select ""i;j"""].
Proof. vm_compute. reflexivity. Qed.
