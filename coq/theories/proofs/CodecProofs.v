From FS Require Import Sexp Codec.

Definition starts_q (s : str) : bool := match s with c :: _ => c =? q | [] => false end.

(* all three generator/lexer pairs are this: a body lexer that reads each [f c] back as [c] reads [flat_map f s] back as [s] *)
Lemma body_reads (body : str -> option (str * str)) (f : Z -> str) :
  (forall c x, body (f c ++ x) = cons_res c (body x)) ->
  forall s x rest, body x = Some ([], rest) -> body (flat_map f s ++ x) = Some (s, rest).
Proof.
  intros F s x rest E. induction s as [|c s IH]; cbn [flat_map app]; [exact E|].
  rewrite <- app_assoc, F, IH. reflexivity.
Qed.

(* what the Snowflake tokenizer reads back as the character c inside a literal *)
Definition sf_spells (e : str) (c : Z) : Prop :=
  (e = [c] /\ c <> bs /\ c <> q) \/ exists p, e = [bs; p] /\ sf_unesc p = Some c.

Lemma sf_body_spelled e c x : sf_spells e c -> sf_body (e ++ x) = cons_res c (sf_body x).
Proof.
  intros [(-> & N1 & N2)|(p & -> & U)]; cbn [app sf_body].
  - apply Z.eqb_neq in N1, N2. rewrite N1, N2. reflexivity.
  - rewrite Z.eqb_refl, U. reflexivity.
Qed.

(* the connector's escape and sqlglot's Snowflake generator both spell every character: one table entry after the other
   (`case` on the partly applied Z.eqb_spec c takes the next test c =? k of the cascade) *)
Lemma esc_c_spells c : sf_spells (esc_c c) c.
Proof.
  unfold esc_c. repeat (case (Z.eqb_spec c); [intros ->; right; eexists; split; reflexivity|intro]). left; auto.
Qed.

Lemma sf_gen_c_spells c : sf_spells (sf_gen_c c) c.
Proof.
  unfold sf_gen_c. repeat (case (Z.eqb_spec c); [intros ->; right; eexists; split; reflexivity|intro]). left; auto.
Qed.

Lemma sf_body_end rest : starts_q rest = false -> sf_body (q :: rest) = Some ([], rest).
Proof. destruct rest as [|p r]; cbn; intros H; [reflexivity|]. rewrite H. reflexivity. Qed.

Theorem sf_lex_spelled f : (forall c, sf_spells (f c) c) -> forall s rest, starts_q rest = false ->
  sf_lex ((q :: flat_map f s ++ [q]) ++ rest) = Some (s, rest).
Proof.
  intros F s rest H. cbn [app sf_lex]. rewrite Z.eqb_refl, <- app_assoc.
  apply body_reads; [intros c x; apply sf_body_spelled, F|apply sf_body_end, H].
Qed.

Lemma duck_body_gen_c c x : duck_body ((if c =? q then [q; q] else [c]) ++ x) = cons_res c (duck_body x).
Proof.
  destruct (Z.eqb_spec c q) as [->|N]; [reflexivity|].
  apply Z.eqb_neq in N. cbn [app duck_body]. rewrite N. reflexivity.
Qed.

Lemma duck_body_end rest : starts_q rest = false -> duck_body (q :: rest) = Some ([], rest).
Proof. destruct rest as [|p r]; cbn; intros H; [reflexivity|]. rewrite H. reflexivity. Qed.

(* python %: a command text as literal pieces, %% and %s *)
Inductive seg := Lit (l : str) | Pct | Hole.
Definition pct_free (l : str) : bool := forallb (fun c => negb (c =? 37)) l.
Definition seg_ok (g : seg) : bool := match g with Lit l => pct_free l | _ => true end.
Definition render1 (g : seg) : str := match g with Lit l => l | Pct => [37; 37] | Hole => [37; 115] end.
Definition render (segs : list seg) : str := concat (map render1 segs).
Fixpoint holes (segs : list seg) : nat :=
  match segs with [] => 0%nat | Hole :: r => S (holes r) | _ :: r => holes r end.
Fixpoint fill (segs : list seg) (vals : list str) : str :=
  match segs with
  | [] => []
  | Lit l :: r => l ++ fill r vals
  | Pct :: r => 37 :: fill r vals
  | Hole :: r => match vals with v :: vs => v ++ fill r vs | [] => [] end
  end.

Lemma pyfmt_lit l : forall rest vals, pct_free l = true ->
  pyfmt (l ++ rest) vals = option_map (app l) (pyfmt rest vals).
Proof.
  induction l as [|c l IH]; intros rest vals H.
  - cbn. destruct (pyfmt rest vals); reflexivity.
  - cbn [pct_free forallb] in H. apply andb_true_iff in H as [H1 H2]. apply negb_true_iff in H1.
    cbn [app pyfmt]. rewrite H1. rewrite IH by exact H2. destruct (pyfmt rest vals); reflexivity.
Qed.

Example codec_nonvacuous :
  let s := [97; q; bs; 10; 37; 115; 36; 120; 59; 45; 45] in    (* a'\<newline>%s$x;-- *)
  bind (lit "select %s, '100%%' from t where c = %s") [s; lit "it's"] =
    Some (lit "select " ++ quote (escape s) ++ lit ", '100%' from t where c = " ++ quote (escape (lit "it's"))) /\
  sf_lex (quote (escape s) ++ lit ", '100%'") = Some (s, lit ", '100%'") /\
  duck_lex (duck_gen s) = Some (s, []) /\ sf_lex (sf_gen s) = Some (s, []).
Proof. vm_compute. repeat split. Qed.
