From FS Require Import Sexp Tx.
From Coq Require Import Lia.

(* cset/cget as a functional array; out of bounds cset does nothing and cget reads NoTx *)
Lemma cset_length l c t : length (cset l c t) = length l.
Proof. revert c. induction l; intros [|c]; cbn; auto. Qed.
Lemma cget_cset_same l c t : (c < length l)%nat -> cget (cset l c t) c = t.
Proof. revert c. induction l as [|x l IH]; intros [|c] H; cbn in *; try lia; [reflexivity|]. apply IH. lia. Qed.
Lemma cget_cset_other l c d t : c <> d -> cget (cset l c t) d = cget l d.
Proof. revert c d. induction l as [|x l IH]; intros [|c] [|d] H; cbn; try congruence. apply IH. congruence. Qed.
Lemma cset_cset l c a b : cset (cset l c a) c b = cset l c b.
Proof. revert c. induction l; intros [|c]; cbn; congruence. Qed.
Lemma cset_comm l c d a b : c <> d -> cset (cset l c a) d b = cset (cset l d b) c a.
Proof. revert c d. induction l as [|x l IH]; intros [|c] [|d] H; cbn; try congruence. rewrite IH; congruence. Qed.
Lemma cset_cget l c t : cget l c = t -> cset l c t = l.
Proof. intros <-. revert c. induction l as [|x l IH]; intros [|c]; cbn; try reflexivity. f_equal. apply IH. Qed.

(* worlds that no observation can tell apart *)
Definition weq (w w' : world) : Prop :=
  committed w = committed w' /\ length (conns w) = length (conns w') /\
  forall d, cget (conns w) d = cget (conns w') d.

(* weq is equality, so the facts below are equations between worlds *)
Lemma weq_eq w w' : weq w w' <-> w = w'.
Proof.
  split; [|intros <-; repeat split; auto]. destruct w as [cm l], w' as [cm' l']. cbn [weq committed conns]. intros (C & Ln & G).
  f_equal; [exact C|]. apply nth_ext with (d := NoTx) (d' := NoTx); [exact Ln|]. intros d _. apply G.
Qed.
Lemma weq_refl w : weq w w.
Proof. apply weq_eq. reflexivity. Qed.

Lemma run_cons w co h : run w (co :: h) = snd (step w co) :: run (fst (step w co)) h.
Proof. cbn [run]. destruct (step w co). reflexivity. Qed.

Lemma final_app h1 : forall w h2, final w (h1 ++ h2) = final (final w h1) h2.
Proof. induction h1 as [|co h1 IH]; intros w h2; cbn [app final]; auto. Qed.
Lemma run_app h1 : forall w h2, run w (h1 ++ h2) = run w h1 ++ run (final w h1) h2.
Proof. induction h1 as [|co h1 IH]; intros w h2; cbn [app final]; [reflexivity|]. rewrite !run_cons, IH. reflexivity. Qed.

Lemma step_outside w c o : cget (conns w) c = NoTx -> o <> Begin ->
  step w (c, o) = let '(cm, _, x) := local (committed w) NoTx o in ({| committed := cm; conns := conns w |}, x).
Proof.
  intros N B. unfold step. rewrite N.
  destruct o; try congruence; cbn [local]; rewrite (cset_cget _ _ _ N); reflexivity.
Qed.

Lemma fail_inside w c sn own : cget (conns w) c = Active sn own -> step w (c, Fail) = (w, OErr).
Proof. intros E. unfold step. rewrite E. cbn [local]. rewrite (cset_cget _ _ _ E). destruct w; reflexivity. Qed.

Definition byc (c : nat) (co : nat * op) : bool := Nat.eqb (fst co) c.
Definition others (c : nat) (h : list (nat * op)) : list (nat * op) := filter (fun co => negb (byc c co)) h.

(* the body of a transaction of connection c: c issues only DML, queries and failing statements
   (no BEGIN/COMMIT/ROLLBACK); the other connections do anything *)
Definition body_op (o : op) : bool := match o with Insert _ | Select | Fail => true | _ => false end.
Definition tx_body (c : nat) (h : list (nat * op)) : bool :=
  forallb (fun co => negb (byc c co) || body_op (snd co)) h.

(* c's writes inside the body, in order *)
Fixpoint writes (c : nat) (h : list (nat * op)) : list Z :=
  match h with
  | [] => []
  | (d, Insert r) :: t => if Nat.eqb d c then r :: writes c t else writes c t
  | _ :: t => writes c t
  end.

Lemma writes_cons c d o h :
  writes c ((d, o) :: h) = (if Nat.eqb d c then match o with Insert r => [r] | _ => [] end else []) ++ writes c h.
Proof. destruct o; cbn [writes]; destruct (Nat.eqb d c); reflexivity. Qed.

(* observations of everybody except c *)
Fixpoint run_o (c : nat) (w : world) (h : list (nat * op)) : list obs :=
  match h with
  | [] => []
  | co :: r => let '(w', x) := step w co in if byc c co then run_o c w' r else x :: run_o c w' r
  end.

Lemma run_o_cons c w co h :
  run_o c w (co :: h) = (if byc c co then [] else [snd (step w co)]) ++ run_o c (fst (step w co)) h.
Proof. cbn [run_o]. destruct (step w co), (byc c co); reflexivity. Qed.

(* a transaction in progress that has written ws (none yet, if no statement has followed BEGIN) *)
Definition intx (t : txs) (ws : list Z) : Prop :=
  (t = Begun /\ ws = []) \/ exists sn, t = Active sn ws.

(* w: c is inside a transaction having written ws; w': the same world in which c did nothing *)
Definition sim (c : nat) (ws : list Z) (w w' : world) : Prop :=
  committed w = committed w' /\ length (conns w) = length (conns w') /\ (c < length (conns w))%nat /\
  (forall d, d <> c -> cget (conns w) d = cget (conns w') d) /\
  cget (conns w') c = NoTx /\ intx (cget (conns w) c) ws.

(* sim c ws w w' says of w that c is inside a transaction (inside) and of w' that it is w with c's transaction
   forgotten (forget): sim_spec. The lemmas below speak of inside and forget. *)
Definition forget (c : nat) (w : world) : world := {| committed := committed w; conns := cset (conns w) c NoTx |}.
Definition inside (c : nat) (ws : list Z) (w : world) : Prop :=
  (c < length (conns w))%nat /\ intx (cget (conns w) c) ws.

Lemma sim_spec c ws w w' : sim c ws w w' <-> inside c ws w /\ w' = forget c w.
Proof.
  split.
  - intros (C & Ln & Lt & G & N & I). split; [split; assumption|]. apply weq_eq.
    unfold weq, forget. cbn [committed conns]. rewrite cset_length. repeat split; try congruence.
    intros d. destruct (Nat.eq_dec d c) as [->|Nd]; [rewrite N|rewrite <- G by exact Nd]; symmetry.
    + apply cget_cset_same, Lt.
    + apply cget_cset_other. congruence.
  - intros [[Lt I] ->]. unfold sim, forget. cbn [committed conns]. rewrite cset_length.
    repeat split; auto using cget_cset_same. intros d Nd. symmetry. apply cget_cset_other. congruence.
Qed.

(* the others' statements commute with forgetting c's transaction and do not touch it *)
Lemma step_other c w d o : d <> c ->
  step (forget c w) (d, o) = (forget c (fst (step w (d, o))), snd (step w (d, o))) /\
  forall ws, inside c ws w -> inside c ws (fst (step w (d, o))).
Proof.
  intros N. unfold step, forget, inside. cbn [committed conns]. rewrite (cget_cset_other _ c d) by congruence.
  destruct (local _ _ o) as [[cm t] x]. cbn [fst snd committed conns].
  rewrite cset_length, (cget_cset_other _ d c), (cset_comm _ c d) by congruence. auto.
Qed.

(* c's statements inside its transaction are invisible once the transaction is forgotten *)
Lemma step_body c ws w o : inside c ws w -> body_op o = true ->
  forget c (fst (step w (c, o))) = forget c w /\
  inside c (ws ++ match o with Insert r => [r] | _ => [] end) (fst (step w (c, o))).
Proof.
  intros [Lt I] B. unfold step, forget, inside.
  destruct I as [[E ->]|[sn E]]; rewrite E; destruct o; try discriminate; cbn [local fst committed conns app].
  all: rewrite cset_cset, cset_length, cget_cset_same by exact Lt.
  (* after any body statement the transaction is Active, with the writes so far *)
  all: unfold intx; rewrite ?app_nil_r; split; [reflexivity|split; [exact Lt|right; eexists; reflexivity]].
Qed.

Lemma body_forgotten c mid : forall ws w, inside c ws w -> tx_body c mid = true ->
  inside c (ws ++ writes c mid) (final w mid) /\
  run_o c w mid = run (forget c w) (others c mid) /\
  forget c (final w mid) = final (forget c w) (others c mid).
Proof.
  induction mid as [|[d o] mid IH]; intros ws w I B.
  - rewrite app_nil_r. auto.
  - cbn [tx_body forallb] in B. apply andb_true_iff in B as [Bo B].
    rewrite run_o_cons, writes_cons. cbn [others filter final]. unfold byc in *. cbn [fst snd] in *.
    destruct (Nat.eqb_spec d c) as [->|N]; cbn [negb app] in *.
    + destruct (step_body c ws w o I Bo) as [F I1]. rewrite <- F, app_assoc. exact (IH _ _ I1 B).
    + destruct (step_other c w d o N) as [St I1]. rewrite run_cons. cbn [final]. rewrite St. cbn [fst snd].
      destruct (IH _ _ (I1 _ I) B) as (I2 & R & F). rewrite R. auto.
Qed.

Lemma begin_inside w c : cget (conns w) c = NoTx -> (c < length (conns w))%nat ->
  inside c [] (fst (step w (c, Begin))) /\ forget c (fst (step w (c, Begin))) = w.
Proof.
  intros N Lt. unfold step, forget, inside. rewrite N. cbn [local fst committed conns].
  rewrite cset_length, cget_cset_same, cset_cset, (cset_cget _ _ _ N) by exact Lt.
  destruct w. unfold intx. auto.
Qed.

Lemma rollback_forget c ws w : inside c ws w -> fst (step w (c, Rollback)) = forget c w.
Proof. intros [_ [[E _]|[sn E]]]; unfold step; rewrite E; reflexivity. Qed.

Definition replay (c : nat) (ws : list Z) : list (nat * op) := map (fun r => (c, Insert r)) ws.

Lemma final_replay c ws : forall w, cget (conns w) c = NoTx ->
  final w (replay c ws) = {| committed := committed w ++ ws; conns := conns w |}.
Proof.
  induction ws as [|r ws IH]; intros w N; cbn [replay map final].
  - rewrite app_nil_r. destruct w; reflexivity.
  - rewrite step_outside by congruence. cbn [local fst]. fold (replay c ws). rewrite IH by exact N.
    cbn [committed conns]. rewrite <- app_assoc. reflexivity.
Qed.

Lemma commit_replay c ws w : inside c ws w -> fst (step w (c, Commit)) = final (forget c w) (replay c ws).
Proof.
  intros [Lt I]. rewrite final_replay by (apply cget_cset_same, Lt). unfold step, forget.
  destruct I as [[E ->]|[sn E]]; rewrite E; cbn [local fst committed conns]; rewrite ?app_nil_r; reflexivity.
Qed.

(* A transaction of c begun outside any transaction, with ANY body: the others observe during the body what they
   would have observed had c done nothing; after ROLLBACK the world is the one of the history with the transaction
   removed, after COMMIT the one of the history in which c performs its writes at the COMMIT point, outside any
   transaction - whatever follows *)
Theorem tx_as_if w c mid : cget (conns w) c = NoTx -> (c < length (conns w))%nat -> tx_body c mid = true ->
  run_o c w ((c, Begin) :: mid) = run w (others c mid) /\
  (forall h2, final w ((c, Begin) :: mid ++ (c, Rollback) :: h2) = final w (others c mid ++ h2)) /\
  (forall h2, final w ((c, Begin) :: mid ++ (c, Commit) :: h2) = final w (others c mid ++ replay c (writes c mid) ++ h2)).
Proof.
  intros N Lt B. destruct (begin_inside w c N Lt) as [I0 F0].
  destruct (body_forgotten c mid [] _ I0 B) as (I & R & F). rewrite F0 in R, F. cbn [app] in I.
  split; [|split]; intros.
  - rewrite run_o_cons. unfold byc. cbn [fst]. rewrite Nat.eqb_refl. exact R.
  - cbn [final]. rewrite !final_app. cbn [final]. rewrite (rollback_forget _ _ _ I), F. reflexivity.
  - cbn [final]. rewrite !final_app. cbn [final]. rewrite (commit_replay _ _ _ I), F. reflexivity.
Qed.

Lemma select_inside c ws w : inside c ws w -> exists sn, snd (step w (c, Select)) = ORows (sn ++ ws).
Proof.
  intros [_ [[E ->]|[sn E]]]; unfold step; rewrite E; cbn [local snd].
  - exists (committed w). rewrite app_nil_r. reflexivity.
  - exists sn. reflexivity.
Qed.

Example tx_nonvacuous :
  run (init 2) [(0, Begin); (0, Insert 1); (1, Select); (1, Insert 2); (0, Select); (0, Commit); (1, Select);
                (1, Begin); (1, Insert 3); (0, Select); (1, Rollback); (0, Select); (0, Commit)]%nat
  = [OEmpty; OInserted; ORows []; OInserted; ORows [1]; OEmpty; ORows [2; 1];
     OEmpty; OInserted; ORows [2; 1]; OEmpty; ORows [2; 1]; OStatus].
Proof. vm_compute. reflexivity. Qed.
