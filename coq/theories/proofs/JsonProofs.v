From FS Require Import Sexp Json.
From Coq Require Import Lia.

Definition starts_delim (l : list pchar) : Prop :=
  match l with [] => True | C c :: _ => (c =? c_dot) || (c =? c_lb) = true | N _ :: _ => True end.

Lemma plain_char_spec c : plain_char c = true -> (c =? c_dot) || (c =? c_lb) = false /\ (c =? c_quote) = false.
Proof. unfold plain_char. intros H. apply negb_true_iff, orb_false_iff in H. exact H. Qed.

Lemma take_plain_ok s : forall acc tail, forallb plain_char s = true -> starts_delim tail ->
  take_plain (map C s ++ tail) acc = (acc ++ s, tail).
Proof.
  induction s as [|c s IH]; intros acc tail H T; cbn.
  - rewrite app_nil_r. destruct tail as [|[c|i] tail]; cbn in *; [reflexivity| |reflexivity]. rewrite T. reflexivity.
  - cbn in H. apply andb_true_iff in H as [Hc Hs]. apply plain_char_spec in Hc as [Hc _].
    rewrite Hc, IH, <- app_assoc by assumption. reflexivity.
Qed.

Lemma take_quote_ok s : forall acc tail, forallb (fun c => negb (c =? c_quote)) s = true ->
  take_until_quote (map C s ++ C c_quote :: tail) acc = Some (acc ++ s, tail).
Proof.
  induction s as [|c s IH]; intros acc tail H; cbn.
  - rewrite app_nil_r. reflexivity.
  - cbn in H. apply andb_true_iff in H as [Hc Hs]. apply negb_true_iff in Hc.
    rewrite Hc, IH, <- app_assoc by assumption. reflexivity.
Qed.

Lemma render_starts p : starts_delim (flat_map render_step p).
Proof. destruct p as [|[s|s|i] p]; cbn; auto. Qed.

(* what DuckDB's lexer makes of the text sqlglot wrote for one step, whatever follows it *)
Lemma parse_step_render f st tail : dom_step st = true -> starts_delim tail ->
  parse_steps (S f) (render_step st ++ tail) = option_map (cons st) (parse_steps f tail).
Proof.
  intros D T. destruct st as [[|c s]|s|i]; try discriminate; cbn in D |- *.
  - apply andb_true_iff in D as [Hc Hs]. apply plain_char_spec in Hc as [Hc Hq].
    rewrite Hq, Hc, take_plain_ok by assumption. reflexivity.
  - rewrite <- app_assoc. cbn [app]. rewrite take_quote_ok by exact D. reflexivity.
  - reflexivity.
Qed.

Lemma render_length p : (length p <= length (flat_map render_step p))%nat.
Proof.
  induction p as [|st p IH]; cbn; [lia|]. rewrite app_length. destruct st; cbn; lia.
Qed.

Lemma parse_render p : forall fuel, (length p < fuel)%nat -> dom_path p = true -> parse_steps fuel (flat_map render_step p) = Some p.
Proof.
  induction p as [|st p IH]; intros [|f] F D; try (cbn in F; lia); [reflexivity|].
  cbn in D. apply andb_true_iff in D as [Ds Dp].
  cbn [flat_map]. rewrite parse_step_render, IH by (auto using render_starts; cbn in F; lia). reflexivity.
Qed.

Definition ex_doc : json :=
  JObj [(lit "a", JObj [(lit "b", JArr [JNum 10; JObj [(lit "c", JStr (lit "x y"))]; JNull; JBool true]); (lit "s", JStr (lit "Str"))]);
        (lit "k y", JNum 1); (lit "k", JStr (lit "top"))].
