(* MERGE under interleaving. Both results are instances of the per-session invariant theorem of StepsProofs (sinv_run):
   the staging table of a session holds its own candidates between the calls of its MERGE (merge_staging_private), and,
   when only session i writes the target and nobody writes the source while the MERGE runs, the three engine calls of the MERGE -
   however other sessions' calls fall between them - leave the target as the MERGE executed alone would (merge_serial_result). *)
From FS Require Import Sexp Steps StepsProofs.

Definition target_of (o : op) : option key :=
  match o with CreateTable k _ | Insert k _ | TxInserts k _ _ | Merge _ k _ => Some k | _ => None end.
Definition wkey (c : call) : option key :=
  match c with MkTable k | InsertRow k _ | CommitRows k _ | ApplyCands _ k => Some k | _ => None end.

Lemma fetch_footprint o p c : fetch o p = Some c ->
  (forall k, wkey c = Some k -> target_of o = Some k) /\ (forall sid k src, c = MkCands sid k src -> o = Merge sid k src).
Proof.
  destruct o as [d s|d|k0 [cm|]|k0 v|k0|k0|k0 vs b|sid k0 src0]; cbn.
  8: { (* TxInserts: the 8th goal, CreateTable having split in two on its comment *) intros F. destruct (fetch_tx _ _ _ _ _ F) as [->|[[v ->]| ->]]; [| |destruct b]; split; intros; cbn in *; congruence. }
  (* the other operations have at most ten program points, each with a fixed call *)
  all: do 10 (try (destruct p as [|p]; try discriminate)); intros [= <-]; split; intros; cbn in *; congruence.
Qed.

Lemma exec_tbls_frame e c k : wkey c <> Some k -> klook (tbls (fst (exec e c))) k = klook (tbls e) k.
Proof.
  intros W. destruct c; cbn in *; exec_cases; try reflexivity.
  (* left: the calls that write a table other than k. InsertRow, CommitRows and ApplyCands `kput` it, MkTable appends it *)
  all: rewrite ?klook_kput, ?klook_app; cbn; rewrite key_eqb_neq by congruence; try reflexivity.
  (* MkTable *) destruct (klook (tbls e) k); reflexivity.
Qed.

Lemma exec_temps_frame e c i : (forall sid k src, c = MkCands sid k src -> sid <> i) -> tlook (temps (fst (exec e c))) i = tlook (temps e) i.
Proof.
  intros H. destruct c; cbn; exec_cases; try reflexivity.
  (* left: MkCands *) rewrite tlook_tput, (proj2 (Nat.eqb_neq _ _) (H _ _ _ eq_refl)). reflexivity.
Qed.

Lemma op_tbls_frame e o p c k : fetch o p = Some c -> target_of o <> Some k -> klook (tbls (fst (exec e c))) k = klook (tbls e) k.
Proof. intros F N. apply exec_tbls_frame. intros W. exact (N (proj1 (fetch_footprint o p c F) k W)). Qed.

Lemma op_temps_frame e o p c i j : fetch o p = Some c -> op_sid_ok j o = true -> i <> j -> tlook (temps (fst (exec e c))) i = tlook (temps e) i.
Proof.
  intros F Hs N. apply exec_temps_frame. intros sid k src ->. rewrite (proj2 (fetch_footprint o p _ F) _ _ _ eq_refl) in Hs.
  apply Nat.eqb_eq in Hs. congruence.
Qed.

(* between its first and its last engine call, a MERGE of session i finds in ITS temporary table exactly the candidates
   its own first call computed (and its second call applied) *)
Definition priv (e : eng) (i : nat) (s : sess) : Prop :=
  match todo s with
  | Merge _ _ _ :: _ => (pc s = 1 \/ pc s = 2)%nat -> exists cs, last s = ARows cs /\ tlook (temps e) i = Some cs
  | _ => True
  end.

Lemma priv_start e j x : pc x = 0%nat -> priv e j x.
Proof. unfold priv. intros ->. destruct (todo x) as [|[] ?]; trivial. intros [|]; discriminate. Qed.

Lemma priv_call e j x o rest c : todo x = o :: rest -> op_sid_ok j o = true -> fetch o (pc x) = Some c -> priv e j x ->
  priv (fst (exec e c)) j {| todo := todo x; pc := advance o (pc x) (snd (exec e c)); last := snd (exec e c); done := done x |}.
Proof.
  unfold priv. cbn [todo pc last]. intros -> Hs F Pr. destruct o as [ | | | | | | |sid k src]; trivial.
  apply Nat.eqb_eq in Hs. subst sid. destruct (pc x) as [|[|[|p]]]; cbn in F; try discriminate; injection F as <-; cbn.
  - (* MkCands fills the table *) destruct (klook (tbls e) k), (klook (tbls e) src); cbn; intros [|]; try discriminate.
    eexists. split; [reflexivity|]. apply tlook_tput_eq.
  - (* ApplyCands reads it *) destruct (Pr (or_introl eq_refl)) as (cs & _ & Tl). rewrite Tl.
    destruct (klook (tbls e) k); cbn; intros [|]; try discriminate. eauto.
  - (* CountCands is the last call *) destruct (tlook (temps e) j); cbn; intros [|]; discriminate.
Qed.

Lemma priv_frame e i x j o p c : i <> j -> op_sid_ok j o = true -> fetch o p = Some c -> priv e i x -> priv (fst (exec e c)) i x.
Proof. intros N Hs F. unfold priv. rewrite (op_temps_frame e o p c i j F Hs N). trivial. Qed.

Definition MInv : eng * list sess -> Prop := SInv (fun j o => op_sid_ok j o = true) priv.

Lemma minv_run lk sch st : MInv st -> MInv (run_sched lk sch st).
Proof. apply sinv_run; [exact priv_start|exact priv_call|exact priv_frame]. Qed.

Lemma minv_init e scripts : (forall j ops, nth_error scripts j = Some ops -> script_ok j ops) -> MInv (e, map mk_sess scripts).
Proof. apply sinv_init. exact priv_start. Qed.

(* scripts: every MERGE is tagged with its session, and sessions other than i never write k or src *)
Definition op_ok (i : nat) (k src : key) (j : nat) (o : op) : Prop :=
  op_sid_ok j o = true /\ (j <> i -> target_of o <> Some k /\ target_of o <> Some src).
Definition scripts_ok (i : nat) (k src : key) (ss : list sess) : Prop :=
  forall j s, nth_error ss j = Some s -> Forall (op_ok i k src j) (todo s).

Definition cands_of (tr sr : list Z) : list Z := filter (fun v => negb (existsb (Z.eqb v) tr)) sr.

(* what session i's MERGE of (k, src) has established between its first and its second call *)
Definition mid (e : eng) (i : nat) (k src : key) (s : sess) : Prop :=
  match todo s with
  | Merge _ k' src' :: _ =>
      k' = k -> src' = src ->
      (pc s = 1%nat -> exists tr sr, klook (tbls e) k = Some tr /\ klook (tbls e) src = Some sr /\
                                     last s = ARows (cands_of tr sr) /\ tlook (temps e) i = Some (cands_of tr sr))
  | _ => True
  end.
Definition FInv (i : nat) (k src : key) (st : eng * list sess) : Prop :=
  scripts_ok i k src (snd st) /\ forall s, nth_error (snd st) i = Some s -> mid (fst st) i k src s.

Section Serial.
  Variables (i : nat) (k src : key).

  (* `mid` speaks of session i only *)
  Definition mid_at (e : eng) (j : nat) (x : sess) : Prop := j = i -> mid e i k src x.

  Lemma finv_sinv st : FInv i k src st <-> SInv (op_ok i k src) mid_at st.
  Proof.
    split.
    - intros [A B] j x H. split; [exact (A j x H)|intros ->; exact (B x H)].
    - intros H. split; [intros j x N; apply (H j x N)|intros x N; apply (H i x N); reflexivity].
  Qed.

  Lemma mid_start e j x : pc x = 0%nat -> mid_at e j x.
  Proof. unfold mid_at, mid. intros -> _. destruct (todo x) as [|[] ?]; trivial. discriminate. Qed.

  (* only the first call of the MERGE leads to program point 1, and it computes the candidates from the tables as they are *)
  Lemma mid_call e j x o rest c : todo x = o :: rest -> op_ok i k src j o -> fetch o (pc x) = Some c -> mid_at e j x ->
    mid_at (fst (exec e c)) j {| todo := todo x; pc := advance o (pc x) (snd (exec e c)); last := snd (exec e c); done := done x |}.
  Proof.
    unfold mid_at, mid. cbn [todo pc last]. intros -> [Hs _] F _ ->. destruct o as [ | | | | | | |sid k' src']; trivial. intros -> ->.
    apply Nat.eqb_eq in Hs. subst sid. destruct (pc x) as [|[|[|p]]]; cbn in F; try discriminate; injection F as <-; cbn.
    - destruct (klook (tbls e) k) as [tr|] eqn:Lk, (klook (tbls e) src) as [sr|] eqn:Ls; cbn; try discriminate.
      intros _. exists tr, sr. rewrite tlook_tput_eq. auto.
    - destruct (klook (tbls e) k), (tlook (temps e) i); cbn; discriminate.
    - destruct (tlook (temps e) i); cbn; discriminate.
  Qed.

  (* another session writes neither k nor src, and not i's staging table *)
  Lemma mid_frame e j x j' o p c : j <> j' -> op_ok i k src j' o -> fetch o p = Some c -> mid_at e j x -> mid_at (fst (exec e c)) j x.
  Proof.
    intros N [Hs Hw] F M ->. specialize (M eq_refl). destruct (Hw (not_eq_sym N)) as [Wk Ws]. revert M. unfold mid.
    rewrite (op_temps_frame e o p c i j' F Hs N), !(op_tbls_frame e o p c _ F) by assumption. trivial.
  Qed.

  Lemma finv_run lk sch st : FInv i k src st -> FInv i k src (run_sched lk sch st).
  Proof. rewrite !finv_sinv. apply sinv_run; [exact mid_start|exact mid_call|exact mid_frame]. Qed.

  Lemma finv_init e scripts : (forall j ops, nth_error scripts j = Some ops -> Forall (op_ok i k src j) ops) -> FInv i k src (e, map mk_sess scripts).
  Proof. intros W. apply finv_sinv, sinv_init; [exact mid_start|exact W]. Qed.

  (* at program point 1 the staged candidates are those of the tables as they are now, so applying them gives the serial result *)
  Lemma mid_apply e x sid rest : mid e i k src x -> todo x = Merge sid k src :: rest -> pc x = 1%nat ->
    exists tr sr, klook (tbls e) k = Some tr /\ klook (tbls e) src = Some sr /\
                  klook (tbls (fst (exec e (ApplyCands i k)))) k = Some (tr ++ cands_of tr sr).
  Proof.
    unfold mid. intros M T P. rewrite T in M. destruct (M eq_refl eq_refl P) as (tr & sr & Lk & Ls & _ & Lt).
    exists tr, sr. repeat split; try assumption. cbn. rewrite Lk, Lt. apply klook_kput_eq.
  Qed.
End Serial.

(* non-vacuity: after the set-up session of merge_setup has finished, two sessions merge into their own tables; the hypothesis holds
   for session 1, a schedule that interleaves the two MERGEs brings session 1 to its second call, and the call gives the serial result *)
Definition ms_state : eng * list sess :=
  run_sched true (repeat 0%nat 40) (e0, map mk_sess [merge_setup ++ [Insert MT1 7]; [Connect DB SC; Merge 1 MT1 MS1]; [Connect DB SC; Merge 2 MT2 MS2]]).
Lemma ms_state_finv : FInv 1 MT1 MS1 ms_state.
Proof.
  split.
  - (* the set-up session has nothing left to do; what sessions 1 and 2 still have is their MERGE, tagged with their own index
       (the first part of op_ok), and for session 2 a target other than MT1 and MS1 (the second part, by computation) *)
    intros j s H. vm_compute in H. destruct j as [|[|[|j]]]; try (destruct j; discriminate); injection H as <-; cbn [todo]; repeat constructor;
      try congruence; vm_compute; discriminate.
  - intros s H. vm_compute in H. injection H as <-. exact I.
Qed.
Example merge_serial_nonvacuous_l :
  let st := run_sched true [1; 1; 1; 1; 2; 2; 2; 2; 1; 2; 2]%nat ms_state in
  (exists s rest, nth_error (snd st) 1 = Some s /\ todo s = Merge 1 MT1 MS1 :: rest /\ pc s = 1%nat) /\
  klook (tbls (fst (exec (fst st) (ApplyCands 1 MT1)))) MT1 = Some [7; 1].
Proof. vm_compute. split; [eexists; eexists; repeat split|reflexivity]. Qed.
