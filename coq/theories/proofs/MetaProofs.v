(* C09: each side table is a function of the live catalog (agrees); every statement inside dom keeps it so (inv_step), and where it
   is so the metadata answers are exact (answers_exact). Renames re-key the side tables: lookup_rekey_remove, swap. *)
From FS Require Import Sexp Meta Common.
From Coq Require Import Lia.

Lemma key_eqb_spec a b : reflect (a = b) (key_eqb a b).
Proof. apply (list_eqb_spec str_eqb); [exact str_eqb_spec|intros [|] [|]; reflexivity]. Qed.

Lemma key_eqb_refl k : key_eqb k k = true.
Proof. destruct (key_eqb_spec k k); congruence. Qed.

Lemma key_eqb_sym a b : key_eqb a b = key_eqb b a.
Proof. destruct (key_eqb_spec a b), (key_eqb_spec b a); congruence. Qed.

Lemma key_eqb_app a : forall b s t, length a = length b -> key_eqb (a ++ s) (b ++ t) = key_eqb a b && key_eqb s t.
Proof.
  induction a as [|p a IH]; intros [|q b] s t H; cbn in H; try discriminate; cbn; [reflexivity|].
  rewrite IH by lia. rewrite andb_assoc. reflexivity.
Qed.

Lemma key_eqb_app_last a b x y : length a = length b -> key_eqb (a ++ [x]) (b ++ [y]) = key_eqb a b && str_eqb x y.
Proof. intros H. rewrite key_eqb_app by exact H. cbn. rewrite andb_true_r. reflexivity. Qed.

Lemma lookup_remove_if {X} (P : key -> bool) (m : amap X) k : lookup (remove_if P m) k = if P k then None else lookup m k.
Proof.
  unfold remove_if. induction m as [|[k' v] m IH]; cbn; [destruct (P k); reflexivity|].
  destruct (P k') eqn:Pk'; cbn; rewrite IH; destruct (key_eqb_spec k' k) as [<-|_]; rewrite ?Pk'; reflexivity.
Qed.

Lemma lookup_upsert {X} (m : amap X) k v k' : lookup (upsert m k v) k' = if key_eqb k k' then Some v else lookup m k'.
Proof. unfold upsert. cbn. rewrite lookup_remove_if. destruct (key_eqb k k'); reflexivity. Qed.

(* put_comment, and put_lengths at each column, write a row only when there is something to record *)
Lemma lookup_upsert_opt {X} (m : amap X) k (o : option X) k' :
  lookup (match o with Some v => upsert m k v | None => m end) k' =
  if key_eqb k k' then match o with Some v => Some v | None => lookup m k' end else lookup m k'.
Proof. destruct o; [apply lookup_upsert|destruct (key_eqb k k'); reflexivity]. Qed.

Lemma split3 (k : key) suf : length k = 3%nat -> firstn 3 (k ++ suf) = k /\ skipn 3 (k ++ suf) = suf.
Proof. intros H. destruct k as [|a [|b [|e [|? ?]]]]; cbn in H; try discriminate. split; reflexivity. Qed.

Lemma of_table_app k k' suf : length k' = 3%nat -> of_table k (k' ++ suf) = key_eqb k k'.
Proof. intros H. unfold of_table. rewrite (proj1 (split3 k' suf H)). apply key_eqb_sym. Qed.

Lemma of_schema_app d s (k' : key) suf : length k' = 3%nat -> of_schema d s (k' ++ suf) = of_schema d s k'.
Proof. intros H. destruct k' as [|a [|b [|e [|? ?]]]]; cbn in H; try discriminate. reflexivity. Qed.

(* every row's key goes through f: looking up q finds the row whose key f sends to q; q' is the key that row had *)
Lemma lookup_rekey {X} f (m : amap X) q q' :
  (forall y v, In (y, v) m -> f y = q <-> y = q') -> lookup (rekey f m) q = lookup m q'.
Proof.
  induction m as [|[y v] m IH]; intros H; cbn; [reflexivity|].
  destruct (H y v (or_introl eq_refl)) as [H1 H2].
  destruct (key_eqb_spec (f y) q) as [E|N], (key_eqb_spec y q') as [E'|N']; [reflexivity|elim (N' (H1 E))|elim (N (H2 E'))|].
  apply IH. intros y0 v0 Hp. apply (H y0 v0). right. exact Hp.
Qed.

(* after remove_if P only the surviving keys matter *)
Lemma lookup_rekey_remove {X} f P (m : amap X) q q' :
  (forall y, P y = false -> f y = q <-> y = q') -> lookup (rekey f (remove_if P m)) q = if P q' then None else lookup m q'.
Proof.
  intros H. rewrite <- lookup_remove_if. apply lookup_rekey. intros y v Hy. apply filter_In in Hy as [_ Hy].
  apply H, negb_true_iff, Hy.
Qed.

(* RENAME COLUMN and RENAME TO take the name a to b after the rows of b have been deleted. What answers to q afterwards answered to
   swap a b q before: b gets what a had; a gets what b had, and that is nothing, b's rows being gone. a, b, q are whole keys for a
   column, the table parts of keys for a table *)
Definition swap (a b q : key) : key := if key_eqb b q then a else if key_eqb a q then b else q.

Lemma rename_swap a b y q : y <> b -> (if key_eqb y a then b else y) = q <-> y = swap a b q.
Proof. intros N. unfold swap. destruct (key_eqb_spec y a), (key_eqb_spec b q), (key_eqb_spec a q); split; congruence. Qed.

(* the left-hand side is what lookup_rekey_remove answers at q' = swap a b q, g being the look-up before the rename *)
Lemma swap_read {V} (g : key -> option V) a b q : a <> b ->
  (if key_eqb b (swap a b q) then None else g (swap a b q)) = if key_eqb b q then g a else if key_eqb a q then None else g q.
Proof.
  intros N. unfold swap. destruct (key_eqb_spec b q) as [<-|Nb]; [|destruct (key_eqb_spec a q) as [<-|Na]].
  - destruct (key_eqb_spec b a); congruence.
  - rewrite key_eqb_refl. reflexivity.
  - destruct (key_eqb_spec b q); congruence.
Qed.

(* rename_column_ext_sql: the length recorded for c moves to c'; what was recorded for c' is forgotten *)
Lemma lookup_recol {X} k c c' (m : amap X) q : c <> c' ->
  lookup (rekey (recol k c c') (remove_if (key_eqb (k ++ [c'])) m)) q =
  if key_eqb (k ++ [c']) q then lookup m (k ++ [c]) else if key_eqb (k ++ [c]) q then None else lookup m q.
Proof.
  intros Hcc. assert (Hab : k ++ [c] <> k ++ [c']) by (intros E; apply app_inv_head in E; congruence).
  rewrite (lookup_rekey_remove _ _ _ _ (swap (k ++ [c]) (k ++ [c']) q)); [apply swap_read, Hab|].
  intros y Hy. apply rename_swap. destruct (key_eqb_spec (k ++ [c']) y); congruence.
Qed.

Lemma eq_app3 (y a : key) s : length a = 3%nat -> y = a ++ s <-> firstn 3 y = a /\ skipn 3 y = s.
Proof. intros H. split; [intros ->; apply split3, H|]. intros [<- <-]. symmetry. apply firstn_skipn. Qed.

Lemma retable_parts k k' y : length k' = 3%nat ->
  firstn 3 (retable k k' y) = (if key_eqb (firstn 3 y) k then k' else firstn 3 y) /\ skipn 3 (retable k k' y) = skipn 3 y.
Proof. intros H. unfold retable, of_table. destruct (key_eqb (firstn 3 y) k); [apply split3, H|split; reflexivity]. Qed.

(* rename_table_ext_sql: what is recorded for k moves to k'; what was recorded for k' is forgotten. suf = [] (comments) or [column] *)
Lemma lookup_retable {X} k k' (m : amap X) k2 suf : length k = 3%nat -> length k' = 3%nat -> length k2 = 3%nat -> k <> k' ->
  lookup (rekey (retable k k') (remove_if (of_table k') m)) (k2 ++ suf) =
  if key_eqb k' k2 then lookup m (k ++ suf) else if key_eqb k k2 then None else lookup m (k2 ++ suf).
Proof.
  intros Hk Hk' Hk2 Hne.
  assert (Hs : length (swap k k' k2) = 3%nat) by (unfold swap; destruct (key_eqb k' k2), (key_eqb k k2); assumption).
  rewrite (lookup_rekey_remove _ _ _ _ (swap k k' k2 ++ suf)).
  - rewrite of_table_app by exact Hs. apply (swap_read (fun a => lookup m (a ++ suf))), Hne.
  - (* a key is a ++ suf when a is its table part and suf the rest; retable renames the table part of y and keeps the rest *)
    intros y Hy. destruct (retable_parts k k' y Hk') as [T R]. rewrite !eq_app3, T, R by assumption.
    rewrite rename_swap; [reflexivity|]. unfold of_table in Hy. destruct (key_eqb_spec (firstn 3 y) k'); congruence.
Qed.

Lemma find_col_app cols c x : find_col (cols ++ [x]) c =
  match find_col cols c with Some y => Some y | None => if str_eqb (cname x) c then Some x else None end.
Proof.
  unfold find_col. induction cols as [|y cols IH]; cbn; [reflexivity|].
  destruct (str_eqb (cname y) c); [reflexivity|exact IH].
Qed.

Lemma nodup_find_none x r : negb (existsb (fun y => str_eqb (cname y) (cname x)) r) = true -> find_col r (cname x) = None.
Proof.
  intros H. apply negb_true_iff in H. unfold find_col. induction r as [|y r IH]; cbn; [reflexivity|].
  cbn in H. apply orb_false_iff in H as [H1 H2]. rewrite H1. apply IH. exact H2.
Qed.

Lemma nodup_app_last cols x : nodup_names cols = true -> find_col cols (cname x) = None -> nodup_names (cols ++ [x]) = true.
Proof.
  induction cols as [|y cols IH]; intros H F; cbn; [reflexivity|].
  cbn in H. apply andb_true_iff in H as [H1 H2].
  unfold find_col in F. cbn in F. destruct (str_eqb (cname y) (cname x)) eqn:E; [discriminate|].
  rewrite IH by assumption. rewrite existsb_app. cbn. rewrite (str_eqb_sym (cname x)), E.
  apply negb_true_iff in H1. rewrite H1. reflexivity.
Qed.

Lemma find_col_drop cols c x : find_col (filter (fun y => negb (str_eqb (cname y) c)) cols) x =
  if str_eqb c x then None else find_col cols x.
Proof.
  unfold find_col. induction cols as [|y r IH]; cbn; [destruct (str_eqb c x); reflexivity|].
  destruct (str_eqb_spec (cname y) c) as [E|N]; cbn.
  - rewrite IH. destruct (str_eqb_spec c x); [reflexivity|]. destruct (str_eqb_spec (cname y) x); [congruence|reflexivity].
  - destruct (str_eqb_spec (cname y) x) as [<-|]; [|exact IH]. destruct (str_eqb_spec c (cname y)); [congruence|reflexivity].
Qed.

(* the length information_schema should report for a column: its declared or default length if it is a text column *)
Definition text_len (o : option coldef) : option Z :=
  match o with Some {| cty := TText d |} => Some (dflt d) | _ => None end.

Lemma find_col_rename cols c c' x : find_col cols c' = None ->
  text_len (find_col (rename_col cols c c') x) =
  if str_eqb c' x then text_len (find_col cols c) else if str_eqb c x then None else text_len (find_col cols x).
Proof.
  unfold find_col, rename_col. induction cols as [|y r IH]; cbn; intros H.
  - destruct (str_eqb c' x), (str_eqb c x); reflexivity.
  - destruct (str_eqb_spec (cname y) c') as [|Nc']; [discriminate|]. specialize (IH H).
    destruct (str_eqb_spec (cname y) c) as [Ec|Nc]; cbn [cname].
    + revert IH. destruct (str_eqb_spec c' x); intros IH; [destruct y as [n [d|z]]; reflexivity|].
      rewrite IH. destruct (str_eqb_spec c x); [reflexivity|]. destruct (str_eqb_spec (cname y) x); [congruence|reflexivity].
    + destruct (str_eqb_spec (cname y) x) as [Ex|Nx]; [|exact IH].
      destruct (str_eqb_spec c' x), (str_eqb_spec c x); congruence.
Qed.

Lemma put_lengths_cons k x r base : put_lengths k (x :: r) base =
  match text_len (Some x) with Some n => upsert (put_lengths k r base) (k ++ [cname x]) n | None => put_lengths k r base end.
Proof. destruct x as [n [d|z]]; reflexivity. Qed.

(* insert_text_lengths_sql writes the declared lengths of the statement's columns over what is there *)
Lemma put_lengths_lookup k cols : nodup_names cols = true -> length k = 3%nat -> forall base k' c, length k' = 3%nat ->
  lookup (put_lengths k cols base) (k' ++ [c]) =
  if key_eqb k k' then match text_len (find_col cols c) with Some n => Some n | None => lookup base (k' ++ [c]) end
  else lookup base (k' ++ [c]).
Proof.
  intros Hnd Hk base k' c Hk'. induction cols as [|x r IH].
  - cbn. destruct (key_eqb k k'); reflexivity.
  - cbn in Hnd. apply andb_true_iff in Hnd as [Hx Hr].
    rewrite put_lengths_cons, lookup_upsert_opt, key_eqb_app_last, (IH Hr) by congruence.
    destruct (key_eqb k k'); [|reflexivity]. cbn [andb].
    change (find_col (x :: r) c) with (if str_eqb (cname x) c then Some x else find_col r c).
    (* x is the only column of its name: where it has no length to record, no other column writes one *)
    destruct (str_eqb_spec (cname x) c) as [<-|]; [|reflexivity].
    rewrite (nodup_find_none _ _ Hx). destruct (text_len (Some x)); reflexivity.
Qed.

(* a side table m is the function `want` of the live catalog l: the row under (table key ++ suf) holds what `want` reads off the
   table's current declaration, and there is no such row for a table that is not live. suf = [] for comments, [column] for lengths *)
Section Agrees.
  Context {X : Type} (suf : key) (want : tdecl -> option X).

  Definition agrees (l : amap tdecl) (m : amap X) : Prop :=
    forall k, length k = 3%nat -> lookup m (k ++ suf) = match lookup l k with Some t => want t | None => None end.

  (* a statement about table k alone: the catalog gets t' there, the side table answers want t' there and as before elsewhere *)
  Lemma agrees_upsert l m m' k t' : agrees l m ->
    (forall k2, length k2 = 3%nat -> lookup m' (k2 ++ suf) = if key_eqb k k2 then want t' else lookup m (k2 ++ suf)) ->
    agrees (upsert l k t') m'.
  Proof.
    intros Hi H k2 Hk2. rewrite H, lookup_upsert by exact Hk2. destruct (key_eqb k k2); [reflexivity|apply Hi, Hk2].
  Qed.

  Lemma agrees_upsert_same l m k t t' : length k = 3%nat -> agrees l m -> lookup l k = Some t -> want t' = want t ->
    agrees (upsert l k t') m.
  Proof.
    intros Hk Hi L W. apply agrees_upsert with m; [exact Hi|]. intros k2 _. destruct (key_eqb_spec k k2) as [<-|]; [|reflexivity].
    rewrite (Hi k Hk), L, W. reflexivity.
  Qed.

  (* CREATE [OR REPLACE] TABLE: the rows of a replaced table are deleted, then `put` writes over what is there *)
  Lemma agrees_create l m k t' (rep : bool) (put : amap X -> amap X) : length k = 3%nat -> agrees l m ->
    match lookup l k with Some _ => negb rep | None => false end = false ->
    (forall base k2, length k2 = 3%nat -> lookup (put base) (k2 ++ suf) =
       if key_eqb k k2 then match want t' with Some v => Some v | None => lookup base (k2 ++ suf) end else lookup base (k2 ++ suf)) ->
    agrees (upsert l k t') (put (if rep then remove_if (of_table k) m else m)).
  Proof.
    intros Hk Hi R P. apply agrees_upsert with m; [exact Hi|]. intros k2 Hk2. rewrite P by exact Hk2.
    assert (C : lookup (if rep then remove_if (of_table k) m else m) (k2 ++ suf) = if key_eqb k k2 then None else lookup m (k2 ++ suf)).
    { destruct rep; [rewrite lookup_remove_if, of_table_app by exact Hk2; reflexivity|].
      destruct (key_eqb_spec k k2) as [<-|]; [|reflexivity]. rewrite (Hi k Hk). destruct (lookup l k); [discriminate|reflexivity]. }
    rewrite C. destruct (key_eqb k k2), (want t'); reflexivity.
  Qed.

  Lemma agrees_remove l m (P Q : key -> bool) : agrees l m -> (forall k, length k = 3%nat -> Q (k ++ suf) = P k) ->
    agrees (remove_if P l) (remove_if Q m).
  Proof. intros Hi H k Hk. rewrite !lookup_remove_if, H by exact Hk. destruct (P k); [reflexivity|apply Hi, Hk]. Qed.

  Lemma agrees_retable l m k k' t : length k = 3%nat -> length k' = 3%nat -> agrees l m -> lookup l k = Some t -> lookup l k' = None ->
    agrees (upsert (remove_if (key_eqb k) l) k' t) (rekey (retable k k') (remove_if (of_table k') m)).
  Proof.
    intros Hk Hk' Hi L L' k2 Hk2. rewrite lookup_retable, lookup_upsert, lookup_remove_if by congruence.
    destruct (key_eqb k' k2); [rewrite (Hi k Hk), L; reflexivity|]. destruct (key_eqb k k2); [reflexivity|apply Hi, Hk2].
  Qed.
End Agrees.

Definition Inv (st : state) : Prop :=
  agrees [] tcomment (live st) (side_c st) /\ forall c, agrees [c] (fun t => text_len (find_col (tcols t) c)) (live st) (side_l st).

Lemma inv_init : Inv init.
Proof. split; intros; intros k _; reflexivity. Qed.

(* ALTER TABLE k ADD / DROP / RENAME COLUMN: the comment stays; the length rows of k are to become those of the new column list *)
Lemma inv_alter st k t cols' sl' : Inv st -> length k = 3%nat -> lookup (live st) k = Some t ->
  (forall x k2, length k2 = 3%nat ->
     lookup sl' (k2 ++ [x]) = if key_eqb k k2 then text_len (find_col cols' x) else lookup (side_l st) (k2 ++ [x])) ->
  Inv {| live := upsert (live st) k {| tcols := cols'; tcomment := tcomment t |}; side_c := side_c st; side_l := sl' |}.
Proof.
  intros [Ic Il] Hk L H. split; [apply agrees_upsert_same with t; auto|].
  intros x. apply agrees_upsert with (side_l st); [apply Il|apply H].
Qed.

Lemma inv_step st o : Inv st -> dom_at st o = true -> Inv (step st o).
Proof.
  intros Hi D. pose proof Hi as [Ic Il]. destruct o as [rep k cols cm|k|d s|k c|k col|k c|k c c'|k k'|k src]; cbn in D; cbn [step].
  - (* CREATE [OR REPLACE] TABLE *)
    apply Nat.eqb_eq in D.
    destruct (negb (nodup_names cols) || _) eqn:G; [exact Hi|].
    apply orb_false_iff in G as [G1 G2]. apply negb_false_iff in G1.
    (* left: what put_comment and put_lengths write *)
    split; [|intros c]; apply agrees_create; auto.
    + intros base k2 _. rewrite app_nil_r. apply lookup_upsert_opt.
    + intros base k2 Hk2. apply put_lengths_lookup; assumption.
  - (* DROP TABLE *)
    apply Nat.eqb_eq in D. destruct (lookup (live st) k); [|exact Hi].
    split; [|intros c]; apply agrees_remove; auto; intros k2 Hk2; apply of_table_app, Hk2.
  - (* DROP SCHEMA *)
    split; [|intros c]; apply agrees_remove; auto; intros k2 Hk2; apply of_schema_app, Hk2.
  - (* COMMENT on an existing table *)
    apply andb_true_iff in D as [D L]. apply Nat.eqb_eq in D.
    destruct (lookup (live st) k) as [t|] eqn:Lk; [|discriminate].
    split; [|intros c'; apply agrees_upsert_same with t; auto].
    apply agrees_upsert with (side_c st); [exact Ic|]. intros k2 _. rewrite app_nil_r. apply lookup_upsert.
  - (* ADD COLUMN *)
    apply Nat.eqb_eq in D. destruct (lookup (live st) k) as [t|] eqn:Lk; [|exact Hi].
    destruct (find_col (tcols t) (cname col)) eqn:F; [exact Hi|].
    apply (inv_alter st k t); auto. intros c k2 Hk2. rewrite (put_lengths_lookup k [col]) by auto.
    destruct (key_eqb_spec k k2) as [<-|]; [|reflexivity]. rewrite find_col_app, (Il c k D), Lk.
    change (find_col [col] c) with (if str_eqb (cname col) c then Some col else None).
    destruct (str_eqb_spec (cname col) c) as [<-|]; [rewrite F; destruct (text_len (Some col))|destruct (find_col (tcols t) c)]; reflexivity.
  - (* DROP COLUMN *)
    apply Nat.eqb_eq in D. destruct (lookup (live st) k) as [t|] eqn:Lk; [|exact Hi].
    destruct (find_col (tcols t) c) eqn:F; [|exact Hi].
    destruct (Nat.leb (length (tcols t)) 1); [exact Hi|].
    apply (inv_alter st k t); auto. intros x k2 Hk2. rewrite lookup_remove_if, key_eqb_app_last by congruence.
    destruct (key_eqb_spec k k2) as [<-|]; [|reflexivity].
    cbn [andb]. rewrite find_col_drop, (Il x k D), Lk. destruct (str_eqb c x); reflexivity.
  - (* RENAME COLUMN *)
    apply Nat.eqb_eq in D. destruct (lookup (live st) k) as [t|] eqn:Lk; [|exact Hi].
    destruct (find_col (tcols t) c) eqn:F; [|exact Hi].
    destruct (find_col (tcols t) c') eqn:F'; [exact Hi|].
    assert (Ncc : c <> c') by (intros ->; congruence).
    apply (inv_alter st k t); auto. intros x k2 Hk2. rewrite lookup_recol, !key_eqb_app_last by congruence.
    destruct (key_eqb_spec k k2) as [<-|]; [|reflexivity].
    cbn [andb]. rewrite (find_col_rename _ c c' x F'), (Il c k D), (Il x k D), Lk. reflexivity.
  - (* RENAME TO *)
    apply andb_true_iff in D as [D _]. apply andb_true_iff in D as [D D']. apply Nat.eqb_eq in D, D'.
    destruct (lookup (live st) k) as [t|] eqn:Lk; [|exact Hi].
    destruct (lookup (live st) k') eqn:Lk'; [exact Hi|].
    split; [|intros c]; apply agrees_retable; auto.
  - (* CLONE: outside dom *) discriminate.
Qed.

Lemma describe_with_ext f g cols : (forall c, f c = g c) -> describe_with f cols = describe_with g cols.
Proof. intros H. unfold describe_with. apply map_ext. intros c. rewrite H. reflexivity. Qed.

(* in a state whose side tables are that function of the declarations, every answer equals the latest declaration - for live
   tables and (as NULL / absent) for everything dropped, replaced or never created *)
Theorem answers_exact st : Inv st -> forall k, length k = 3%nat ->
  comment_fake st k = comment_spec st k /\
  (forall c, len_fake st k c = len_spec st k c) /\
  describe_fake st k = describe_spec st k.
Proof.
  intros [Ic Il] k Hk. assert (L : forall c, len_fake st k c = len_spec st k c) by (intros c; exact (Il c k Hk)).
  split; [|split; [exact L|]].
  - specialize (Ic k Hk). rewrite app_nil_r in Ic. exact Ic.
  - unfold describe_fake, describe_spec. destruct (lookup (live st) k); [|reflexivity]. cbn. f_equal. apply describe_with_ext, L.
Qed.

(* a property kept by every step that the guard admits holds at the end of a guarded run; `from` is the run's guard
   (dom_from, tdom_from), given by its unfolding equation *)
Lemma fold_invariant {St Op} (step : St -> Op -> St) (ok : St -> Op -> bool) (from : St -> list Op -> bool) (P : St -> Prop) :
  (forall s o r, from s (o :: r) = ok s o && from (step s o) r) ->
  (forall s o, P s -> ok s o = true -> P (step s o)) ->
  forall h s, P s -> from s h = true -> P (fold_left step h s).
Proof.
  intros U Keep. induction h as [|o h IH]; intros s Hi D; [exact Hi|].
  rewrite U in D. apply andb_true_iff in D as [D1 D2]. apply IH; [apply Keep; assumption|exact D2].
Qed.

Lemma inv_run h : dom h = true -> Inv (run h).
Proof. apply (fold_invariant step dom_at dom_from Inv); [reflexivity|exact inv_step|exact inv_init]. Qed.

Lemma dom_from_app h1 h2 : forall st, dom_from st (h1 ++ h2) = dom_from st h1 && dom_from (fold_left step h1 st) h2.
Proof. induction h1 as [|o h1 IH]; intros st; cbn; [reflexivity|]. rewrite IH, andb_assoc. reflexivity. Qed.

Definition TInv (ts : tstate) : Prop := Inv (cur ts) /\ (forall s, saved ts = Some s -> Inv s).

Lemma tinv_init : TInv tinit.
Proof. split; [exact inv_init|discriminate]. Qed.

Lemma tinv_step ts o : TInv ts -> tdom_at ts o = true -> TInv (tstep ts o).
Proof.
  intros T D. pose proof T as [Hi Hs]. destruct o as [o| | |]; cbn in D |- *.
  - split; [apply inv_step; assumption|exact Hs].
  - destruct (saved ts); [discriminate|]. split; [exact Hi|]. cbn. intros s [= <-]. exact Hi.
  - split; [exact Hi|discriminate].
  - destruct (saved ts) as [s|]; [|exact T]. split; [apply Hs; reflexivity|discriminate].
Qed.

Lemma tinv_run h : tdom h = true -> TInv (trun h).
Proof. apply (fold_invariant tstep tdom_at tdom_from TInv); [reflexivity|exact tinv_step|exact tinv_init]. Qed.

Lemma fold_stmts h : forall ts, fold_left tstep (map Stmt h) ts = {| cur := fold_left step h (cur ts); saved := saved ts |}.
Proof. induction h as [|o h IH]; intros ts; cbn; [destruct ts; reflexivity|]. rewrite IH. reflexivity. Qed.

Lemma tdom_stmts h : forall ts, tdom_from ts (map Stmt h) = dom_from (cur ts) h.
Proof. induction h as [|o h IH]; intros ts; cbn; [reflexivity|]. rewrite IH. reflexivity. Qed.

Definition K (t : String.string) : key := [lit "DB1"; lit "S1"; lit t].
Arguments K t%string_scope.
Definition vc (n : String.string) (d : option Z) : coldef := {| cname := lit n; cty := TText d |}.
Arguments vc n%string_scope d.
Definition ic (n : String.string) : coldef := {| cname := lit n; cty := TOther 1 |}.
Arguments ic n%string_scope.

(* a non-trivial history inside dom: re-creation under the same name, replacement, a dropped schema, added, dropped,
   re-added and renamed columns, a renamed table whose old name is used again *)
Definition ex_h : list op :=
  [Create false (K "T1") [ic "A"; vc "B" (Some 10); vc "C" None] (Some (lit "first"));
   Drop (K "T1");
   Create false (K "T1") [vc "B" None; ic "C"] None;
   Create true (K "T1") [vc "B" (Some 3)] (Some (lit "it's"));
   AddColumn (K "T1") (vc "D" (Some 255));
   Create false [lit "DB1"; lit "S2"; lit "T1"] [vc "B" (Some 5)] (Some (lit "other"));
   DropSchema (lit "DB1") (lit "S2");
   Create false [lit "DB1"; lit "S2"; lit "T1"] [vc "B" None] None;
   SetComment (K "T1") (lit "last");
   RenameColumn (K "T1") (lit "B") (lit "E");
   DropColumn (K "T1") (lit "D");
   AddColumn (K "T1") (ic "D");
   RenameTable (K "T1") (K "T2");
   Create false (K "T1") [vc "E" None] None].
(* the same history inside transactions: the re-creation is rolled back, later work committed *)
Definition ex_th : list top :=
  map Stmt (firstn 2 ex_h) ++ [TBegin] ++ map Stmt (firstn 2 (skipn 2 ex_h)) ++ [TRollback; TBegin] ++ map Stmt (skipn 2 ex_h) ++ [TCommit; TBegin; Stmt (Drop (K "T2")); TRollback].
