From FS Require Import Sexp Fetch Common.
From Coq Require Import Lia.

(* every call but execute: the fetch calls, and also arraysize, rowcount, fetch_pandas_all and the observers *)
Definition is_fetch (o : op) : bool := match o with Execute _ _ _ => false | _ => true end.

Definition rows_of (o : out) : list row :=
  match o with ORows l => l | OOne (Some r) => [r] | _ => [] end.
Definition dicts_of (o : out) : list (list (str * value)) :=
  match o with ODicts l => l | OOneDict (Some r) => [r] | _ => [] end.

(* number of rows an operation asks for in state s *)
Definition req (s : st) (o : op) : nat :=
  match res s with
  | None => 0%nat
  | Some (rows, _) =>
      match o with
      | Fetchone => 1%nat
      | Fetchmany k => eff_size s k
      | Fetchall => eff_size s (Some (length rows))
      | _ => 0%nat
      end
  end.

Fixpoint requested (s : st) (ops : list op) : nat :=
  match ops with [] => 0%nat | o :: r => (req s o + requested (fst (step s o)) r)%nat end.

Lemma firstn_add {X} (a b : nat) (l : list X) : firstn a l ++ firstn b (skipn a l) = firstn (a + b) l.
Proof.
  revert l. induction a as [|a IH]; intros l; cbn; [reflexivity|].
  destruct l as [|x l]; cbn; [destruct b; reflexivity|]. f_equal. apply IH.
Qed.
Lemma skipn_add {X} (a b : nat) (l : list X) : skipn (a + b) l = skipn b (skipn a l).
Proof.
  revert l. induction a as [|a IH]; intros l; cbn; [reflexivity|].
  destruct l as [|x l]; [destruct b; reflexivity|]. apply IH.
Qed.

Lemma hd_firstn1 {X} (l : list X) :
  match hd_error (firstn 1 l) with Some r => [r] | None => [] end = firstn 1 l.
Proof. destruct l; reflexivity. Qed.

Lemma run_cons s o ops : run s (o :: ops) = snd (step s o) :: run (fst (step s o)) ops.
Proof. cbn [run]. destruct (step s o). reflexivity. Qed.

Lemma step_frame s o : is_fetch o = true ->
  res (fst (step s o)) = res s /\ dictc (fst (step s o)) = dictc s /\ rc (fst (step s o)) = rc s.
Proof. intros F. destruct o; try discriminate; cbn [step]; destruct (res s) as [[]|] eqn:R; auto. Qed.

Lemma final_frame ops : forall s, forallb is_fetch ops = true ->
  res (final s ops) = res s /\ dictc (final s ops) = dictc s /\ rc (final s ops) = rc s.
Proof.
  induction ops as [|o ops IH]; intros s F; cbn [final forallb] in *; [auto|]. apply andb_true_iff in F as [Fo F].
  destruct (step_frame s o Fo) as (<- & <- & <-). apply IH, F.
Qed.

Lemma step_fetch s o rows names : res s = Some (rows, names) -> is_fetch o = true ->
  let got := firstn (req s o) (skipn (off s) rows) in
  off (fst (step s o)) = (off s + req s o)%nat /\
  rows_of (snd (step s o)) = (if dictc s then [] else got) /\
  dicts_of (snd (step s o)) = (if dictc s then map (mkdict names) got else []).
Proof.
  intros R F. unfold req. rewrite R.
  destruct o; try discriminate; cbn [step]; rewrite ?R; cbn [fst snd]; unfold slice.
  all: split; [unfold advance, off; cbn [idx eff_size]; lia|].
  all: destruct (dictc s); cbn [rows_of dicts_of firstn map eff_size]; auto.
  (* left: fetchone, which hands out hd_error (firstn 1 l) *)
  all: destruct (skipn (off s) rows); auto.
Qed.

Lemma req_fetchall s rows names : res s = Some (rows, names) -> (length rows <= req s Fetchall)%nat.
Proof. intros R. unfold req. rewrite R. cbn [eff_size]. destruct (length rows); lia. Qed.

Theorem run_fetch ops : forall s rows names, res s = Some (rows, names) -> forallb is_fetch ops = true ->
  let got := firstn (requested s ops) (skipn (off s) rows) in
  concat (map rows_of (run s ops)) = (if dictc s then [] else got) /\
  concat (map dicts_of (run s ops)) = (if dictc s then map (mkdict names) got else []).
Proof.
  induction ops as [|o ops IH]; intros s rows names R F; cbn zeta.
  - destruct (dictc s); auto.
  - cbn [forallb] in F. apply andb_true_iff in F as [Fo F].
    destruct (step_frame s o Fo) as (R' & D' & _), (step_fetch s o rows names R Fo) as (Of & HR & HD).
    rewrite R in R'. destruct (IH _ rows names R' F) as [IR ID].
    rewrite run_cons. cbn [requested map concat]. rewrite HR, HD, IR, ID, D', Of, skipn_add.
    destruct (dictc s); rewrite <- ?map_app, ?firstn_add; auto.
Qed.

Lemma str_eqb_refl a : str_eqb a a = true.
Proof. exact (Common.str_eqb_refl a). Qed.

Lemma dict_set_fresh d k v : ~ In k (map fst d) -> dict_set d k v = d ++ [(k, v)].
Proof.
  induction d as [|[k' v'] d IH]; cbn; intros H; [reflexivity|].
  destruct (str_eqb_spec k' k) as [->|_]; [tauto|]. f_equal. apply IH. tauto.
Qed.

Lemma mkdict_fresh names : forall r d, NoDup (map fst d ++ names) ->
  fold_left (fun d kv => dict_set d (fst kv) (snd kv)) (combine names r) d = d ++ combine names r.
Proof.
  induction names as [|n names IH]; intros [|v r] d ND; cbn; rewrite ?app_nil_r; try reflexivity.
  rewrite dict_set_fresh by (apply NoDup_remove_2 in ND; rewrite in_app_iff in *; tauto).
  rewrite IH, <- app_assoc; [reflexivity|]. rewrite map_app, <- app_assoc. exact ND.
Qed.

Example fetch_nonvacuous :
  let rows := [[Some 1; None]; [Some 2; Some 5]; [Some 3; Some 6]] in
  let ops := [Fetchone; SetArraysize 2; Fetchmany None; Fetchmany (Some 4%nat); Fetchall; Fetchone] in
  run (init false) (Execute rows [lit "A"; lit "A"] None :: ops) =
  [OUnit; OOne (Some [Some 1; None]); OUnit; ORows [[Some 2; Some 5]; [Some 3; Some 6]]; ORows []; ORows [];
   OOne None].
Proof. vm_compute. reflexivity. Qed.

(* a run with the reads of description / sqlstate / ... (Peek) left out, and what it answers to the calls that remain *)
Definition is_peek (o : op) : bool := match o with Peek => true | _ => false end.
Definition erase (ops : list op) : list op := filter (fun o => negb (is_peek o)) ops.
Fixpoint outs_erase (ops : list op) (outs : list out) : list out :=
  match ops, outs with
  | o :: r, x :: xs => if is_peek o then outs_erase r xs else x :: outs_erase r xs
  | _, _ => []
  end.
