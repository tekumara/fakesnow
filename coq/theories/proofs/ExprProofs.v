(* C10: the rewrite is right node by node. The nodes that take work are TO_DECIMAL, DATEADD and DATEDIFF; for the
   last two, what sem_sf and sem_duck compute there is named as a function of the operands' results, so that the
   case analysis on those results is done once, on variables. Then the civil calendar both semantics share. *)
From FS Require Import Sexp Expr.
From Coq Require Import Lia.

Lemma rescale_same u s0 s : (s0 <=? s) = true -> rescale_trunc u s0 s = rescale_half_away u s0 s.
Proof. intros H. unfold rescale_trunc, rescale_half_away. rewrite H. reflexivity. Qed.

Lemma to_decimal_same try a p s :
  match a with
  | Ok (VDec _ s0) => (s0 <=? s) = true
  | Ok (VNumText u s0) => fits (rescale_trunc u s0 s) p = fits (rescale_half_away u s0 s) p
  | _ => True end ->
  to_decimal_with rescale_trunc rescale_trunc try a p s = to_decimal_with rescale_half_away rescale_half_away try a p s.
Proof.
  intros H. destruct a as [[| | u s0| | | u s0| | | ]|]; try reflexivity; cbn.
  - rewrite (rescale_same u s0 s H). reflexivity.
  - rewrite H. reflexivity.
Qed.

Lemma day_us_pos : 0 < day_us. Proof. reflexivity. Qed.

Lemma shift_us_date u k dn dn' : shift_days u k dn = Some dn' -> shift_us u k (dn * day_us) / day_us = dn'.
Proof.
  intros H. destruct u; try discriminate H; cbn [shift_us];
    rewrite Z.div_mul, Z.mod_mul, H, Z.add_0_r by discriminate; apply Z.div_mul; discriminate.
Qed.

Lemma shift_week k us : shift_us UDay (7 * k) us = shift_us UWeek k us.
Proof. reflexivity. Qed.

(* sem_sf at DATEADD u n d *)
Definition dateadd (u : unit_) (rn rd : res) : res :=
  match rn, rd with
  | Ok VNull, Ok _ | Ok _, Ok VNull => Ok VNull
  | Ok (VInt k), Ok (VDate dn) => match shift_days u k dn with Some dn' => Ok (VDate dn') | None => Ok (VTs (shift_us u k (dn * day_us))) end
  | Ok (VInt k), Ok (VTs us) => Ok (VTs (shift_us u k us))
  | _, _ => Fail
  end.
(* sem_duck at d + INTERVAL n u, up to how far it shifts *)
Definition plus_interval (sh : Z -> Z -> Z) (rn rd : res) : res :=
  match rn, rd with
  | Ok VNull, Ok _ | Ok _, Ok VNull => Ok VNull
  | Ok (VInt j), Ok x => match to_us x with Some us => Ok (VTs (sh j us)) | None => Fail end
  | _, _ => Fail
  end.
(* sem_sf at DATEDIFF and sem_duck at DATE_DIFF, up to how boundaries are counted *)
Definition datediff (df : Z -> Z -> Z) (ra rb : res) : res :=
  match ra, rb with
  | Ok VNull, Ok _ | Ok _, Ok VNull => Ok VNull
  | Ok x, Ok y => match to_us x, to_us y with Some p, Some q => Ok (VInt (df p q)) | _, _ => Fail end
  | _, _ => Fail
  end.

Lemma plus_interval_ext sh sh' rn rd : (forall j us, sh j us = sh' j us) -> plus_interval sh rn rd = plus_interval sh' rn rd.
Proof. intros H. destruct rn as [[]|], rd as [[]|]; try reflexivity; cbn; rewrite H; reflexivity. Qed.

(* a week as 7 days, a quarter as 3 months: the same shift, i.e. shift_us u' (k * j) = shift_us u j for the unit u' and factor k
   of each case. shift_us is unfolded by hand because the two sides are equal only after unfolding, and unification left to
   find that out does not come back *)
Lemma sem_interval en u n d :
  sem_duck en (match u with UWeek => EPlusInterval UDay 7 n d | UQuarter => EPlusInterval UMonth 3 n d | _ => EPlusInterval u 1 n d end) =
  plus_interval (shift_us u) (sem_duck en n) (sem_duck en d).
Proof.
  destruct u; cbn [sem_duck]; apply (plus_interval_ext (fun j => shift_us _ (_ * j))); intros j us; cbn [shift_us shift_days];
    rewrite ?Z.mul_1_l; reflexivity.
Qed.

(* DuckDB's sum is a TIMESTAMP. That is Snowflake's answer unless Snowflake answers with a DATE ... *)
Lemma plus_interval_ts u rn rd : (forall dn, rd = Ok (VDate dn) -> u = UHour) -> plus_interval (shift_us u) rn rd = dateadd u rn rd.
Proof. intros H. destruct rn as [[]|], rd as [[]|]; try reflexivity. rewrite (H _ eq_refl). reflexivity. Qed.

(* ... and cast back to DATE it is that DATE, for a unit of whole days and an operand that is no TIMESTAMP *)
Lemma plus_interval_date u rn rd : date_unit u = true -> (forall us, rd <> Ok (VTs us)) ->
  to_date_v (plus_interval (shift_us u) rn rd) = dateadd u rn rd.
Proof.
  intros U H. destruct rn as [[]|], rd as [[]|]; try reflexivity; [|edestruct H; reflexivity].
  cbn. destruct (shift_days u z d) as [dn'|] eqn:E; [|destruct u; discriminate]. rewrite (shift_us_date _ _ _ _ E). reflexivity.
Qed.

Lemma cast_date_not_ts en d us : is_cast_date d = true -> sem_sf en d <> Ok (VTs us).
Proof.
  destruct d; cbn [is_cast_date]; try discriminate; intros _; cbn [sem_sf]; unfold to_date_v; destruct (sem_sf en d) as [[]|]; discriminate.
Qed.

Lemma datediff_ext df df' ra rb :
  (forall x y p q, ra = Ok x -> rb = Ok y -> to_us x = Some p -> to_us y = Some q -> df p q = df' p q) ->
  datediff df ra rb = datediff df' ra rb.
Proof. intros H. destruct ra as [[]|], rb as [[]|]; try reflexivity; cbn; erewrite H; reflexivity. Qed.

(* lia after the quotients and remainders by constants have been replaced by their defining equations *)
Ltac divlia := Z.to_euclidean_division_equations; lia.

Lemma week_same_side d1 d2 : (monday_of d1 <? 0) = (monday_of d2 <? 0) ->
  Z.quot (monday_of d2) 7 - Z.quot (monday_of d1) 7 = (d2 + 3) / 7 - (d1 + 3) / 7.
Proof. unfold monday_of. intros H. divlia. Qed.

(* DuckDB's truncating division counts the same boundaries as floor division where `supported` lets it *)
Lemma diff_units_duck_same u p q :
  match u with
  | UWeek => (monday_of (p / day_us) <? 0) = (monday_of (q / day_us) <? 0)
  | UHour => 0 <= p /\ 0 <= q
  | _ => True
  end -> diff_units_duck u p q = diff_units u p q.
Proof.
  destruct u; try reflexivity; cbn [diff_units_duck diff_units].
  - apply week_same_side.
  - intros [P Q]. rewrite !Z.quot_div_nonneg by (try assumption; reflexivity). reflexivity.
Qed.

(* the date literal 'y-m-d'::date *)
Definition dlit (y m d : Z) : expr := ECastDate (ELit (VDateText (days_from_civil y m d))).

(* The civil calendar: civil_from_days gives every day number a valid date, and days_from_civil takes it back.
   Both count in eras of 400 years from 1 March (146097 days): day doe of the era lies in its year yoe = 0..399, day doy
   of that year lies in its month mp = 0..11 (March = 0), and the leap day, when there is one, is the year's last. *)
Definition cal_ok (z : Z) : bool := let '(y, m, d) := civil_from_days z in (days_from_civil y m d =? z) && (1 <=? m) && (m <=? 12) && (1 <=? d) && (d <=? month_len y m).

Lemma is_leap_era y e : is_leap (y + e * 400) = is_leap y.
Proof. unfold is_leap. divlia. Qed.

(* year yoe begins on day 365 * yoe + yoe / 4 - yoe / 100 of the era; it has a 366th day only if the February that ends it,
   which belongs to the civil year yoe + 1, is a leap one *)
Lemma year_of_era doe yoe doy : 0 <= doe < 146097 ->
  yoe = (doe - doe / 1460 + doe / 36524 - doe / 146096) / 365 -> doy = doe - (365 * yoe + yoe / 4 - yoe / 100) ->
  0 <= yoe < 400 /\ 0 <= doy <= 365 /\ (doy = 365 -> is_leap (yoe + 1) = true).
Proof.
  intros E Y D.
  (* first with the leap condition written on yoe mod 4 and yoe mod 100, whose quotients yoe / 4 and yoe / 100 the goal already
     has; asked directly about (yoe + 1) mod 4 ..., as is_leap (yoe + 1) does, lia takes ten times as long *)
  assert (0 <= yoe < 400 /\ 0 <= doy <= 365 /\ (doy = 365 -> yoe mod 4 = 3 /\ (yoe mod 100 <> 99 \/ yoe = 399))) by divlia.
  clear E Y D. unfold is_leap. divlia.
Qed.

(* month mp begins on day (153 * mp + 2) / 5 = 0, 31, 61, 92, 122, 153, 184, 214, 245, 275, 306, 337 of the year *)
Lemma month_of_year doy mp y : 0 <= doy <= 365 -> (doy = 365 -> is_leap (y + 1) = true) -> mp = (5 * doy + 2) / 153 ->
  let m := if mp <? 10 then mp + 3 else mp - 9 in
  (m + 9) mod 12 = mp /\ 1 <= m <= 12 /\ 1 <= doy - (153 * mp + 2) / 5 + 1 <= month_len (if m <=? 2 then y + 1 else y) m.
Proof.
  intros D L E m. assert (B : 153 * mp <= 5 * doy + 2 < 153 * mp + 153) by divlia. clear E.
  assert (C : mp = 0 \/ mp = 1 \/ mp = 2 \/ mp = 3 \/ mp = 4 \/ mp = 5 \/ mp = 6 \/ mp = 7 \/ mp = 8 \/ mp = 9 \/ mp = 10 \/ mp = 11) by lia.
  (* only the last month, February, asks whether the year is a leap one *)
  repeat destruct C as [C|C]; subst mp m; cbn -[is_leap]; [lia..|destruct (is_leap (y + 1)); lia].
Qed.

Lemma days_from_civil_era era yoe m d : 0 <= yoe < 400 ->
  days_from_civil (if m <=? 2 then yoe + era * 400 + 1 else yoe + era * 400) m d =
  era * 146097 + (yoe * 365 + yoe / 4 - yoe / 100 + ((153 * ((m + 9) mod 12) + 2) / 5 + d - 1)) - 719468.
Proof. intros Y. unfold days_from_civil. destruct (m <=? 2); cbv zeta; divlia. Qed.

Theorem calendar_roundtrip : forall z, cal_ok z = true.
Proof.
  intros z. pose (era := (z + 719468) / 146097). pose (doe := z + 719468 - era * 146097).
  pose (yoe := (doe - doe / 1460 + doe / 36524 - doe / 146096) / 365).
  pose (doy := doe - (365 * yoe + yoe / 4 - yoe / 100)). pose (mp := (5 * doy + 2) / 153).
  pose (m := if mp <? 10 then mp + 3 else mp - 9). pose (y := if m <=? 2 then yoe + era * 400 + 1 else yoe + era * 400).
  (* the coordinates are posed and civil_from_days z restated in them: with its lets expanded, every one occurs many times over *)
  unfold cal_ok. change (civil_from_days z) with (y, m, doy - (153 * mp + 2) / 5 + 1). cbv beta iota.
  assert (E : 0 <= doe < 146097) by (unfold doe, era; divlia).
  destruct (year_of_era doe yoe doy E eq_refl eq_refl) as (Y & D & L).
  destruct (month_of_year doy mp (yoe + era * 400) D) as (M & M1 & M2); [|reflexivity|].
  { intros F. rewrite <- (L F), <- (is_leap_era (yoe + 1) era). f_equal. ring. }
  subst y m. rewrite days_from_civil_era, M by assumption. lia.
Qed.

Definition ex_expr : expr :=
  ECase (EAnd (EEqualNull (ECol 0) (ELit VNull)) (ELt (EDateDiff UMonth (dlit 2020 1 31) (ECol 1)) (ELit (VInt 3))))
        (EToDecimal false (ELit (VNumText 12345 3)) 10 2)
        (EToDecimal true (ELit (VText (lit "abc"))) 10 2).
