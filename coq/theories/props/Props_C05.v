(* C05 - fetch calls hand out every result row once, in order, at full width. *)
From FS Require Import Sexp Fetch FetchProofs.
From Coq Require Import Lia.

(* any sequence of fetchone / fetchmany(k) / fetchmany() / fetchall / arraysize changes, from any
   point of a result set: the concatenation of everything handed out is exactly the next
   `requested` rows, in result order (tuple cursor and dict cursor) *)
Theorem fetch_in_order : forall ops s rows names,
  res s = Some (rows, names) -> forallb is_fetch ops = true ->
  (dictc s = false ->
     concat (map rows_of (run s ops)) = firstn (requested s ops) (skipn (off s) rows)) /\
  (dictc s = true ->
     concat (map dicts_of (run s ops)) = map (mkdict names) (firstn (requested s ops) (skipn (off s) rows))).
Proof.
  intros ops s rows names R F. destruct (run_fetch ops s rows names R F) as [HR HD].
  split; intros D; rewrite D in *; assumption.
Qed.
Print Assumptions fetch_in_order.

(* from a fresh result set: exactly the first `requested` rows, in order; all of them once the
   request covers the result *)
Theorem exactly_once : forall ops s rows names,
  res s = Some (rows, names) -> idx s = None -> dictc s = false -> forallb is_fetch ops = true ->
  concat (map rows_of (run s ops)) = firstn (requested s ops) rows /\
  ((length rows <= requested s ops)%nat -> concat (map rows_of (run s ops)) = rows).
Proof.
  intros ops s rows names R I D F. destruct (run_fetch ops s rows names R F) as [HR _].
  unfold off in HR. rewrite I, D in HR. split; [exact HR|]. intros Le. rewrite HR. apply firstn_all2, Le.
Qed.
Print Assumptions exactly_once.

(* ... and then an empty list / None for ever *)
Theorem drained_stays_empty : forall ops s rows names,
  res s = Some (rows, names) -> forallb is_fetch ops = true -> (length rows <= off s)%nat ->
  concat (map rows_of (run s ops)) = [] /\ concat (map dicts_of (run s ops)) = [].
Proof.
  intros ops s rows names R F Le. destruct (run_fetch ops s rows names R F) as [HR HD].
  rewrite HR, HD, skipn_all2, firstn_nil by exact Le. destruct (dictc s); auto.
Qed.
Print Assumptions drained_stays_empty.

Theorem fetchall_returns_the_rest_and_drains : forall s rows names, res s = Some (rows, names) ->
  (length rows <= off (fst (step s Fetchall)))%nat /\
  (dictc s = false -> rows_of (snd (step s Fetchall)) = skipn (off s) rows).
Proof.
  intros s rows names R. destruct (step_fetch s Fetchall rows names R eq_refl) as (Of & HR & _).
  pose proof (req_fetchall s rows names R). split; [lia|].
  intros D. rewrite HR, D. apply firstn_all2. rewrite skipn_length. lia.
Qed.
Print Assumptions fetchall_returns_the_rest_and_drains.

(* a DictCursor row carries the same values keyed by the column names (distinct names) *)
Theorem dict_values_agree : forall names r, NoDup names -> mkdict names r = combine names r.
Proof. intros names r ND. exact (mkdict_fresh names r [] ND). Qed.
Print Assumptions dict_values_agree.

Theorem no_result_set_before_execute : forall d o, is_fetch o = true ->
  snd (step (init d) o) =
  match o with
  | Fetchone | Fetchmany _ | Fetchall => OErr 1
  | FetchPandas => OErr 2
  | Rowcount => OCount None
  | _ => OUnit
  end.
Proof. intros d o F. destruct o; try discriminate; reflexivity. Qed.
Print Assumptions no_result_set_before_execute.

(* what follows an execute does not depend on the previous result set or fetch position *)
Theorem execute_replaces : forall s1 s2 rows names aff ops,
  asz s1 = asz s2 -> dictc s1 = dictc s2 ->
  run s1 (Execute rows names aff :: ops) = run s2 (Execute rows names aff :: ops).
Proof. intros s1 s2 rows names aff ops Az D. cbn. rewrite Az, D. reflexivity. Qed.
Print Assumptions execute_replaces.

(* after a query (no DML count) rowcount and fetch_pandas_all agree with the rows, at any point of
   the fetch sequence; after DML rowcount is the affected count *)
Theorem rowcount_and_pandas_agree : forall ops s0 rows names aff,
  forallb is_fetch ops = true ->
  let s := fst (step s0 (Execute rows names aff)) in
  snd (step (final s ops) Rowcount) = OCount (Some (match aff with Some k => k | None => length rows end)) /\
  snd (step (final s ops) FetchPandas) = OCount (Some (length rows)).
Proof.
  intros ops s0 rows names aff F s. destruct (final_frame ops s F) as (Rs & _ & Rc).
  cbn [step snd]. rewrite Rs, Rc. auto.
Qed.
Print Assumptions rowcount_and_pandas_agree.

(* full width even when column names repeat: tuple rows are the result rows themselves *)
Example width_with_repeated_names :
  let rows := [[Some 1; None]; [Some 2; Some 5]; [Some 3; Some 6]] in
  let ops := [Fetchone; SetArraysize 2; Fetchmany None; Fetchmany (Some 4%nat); Fetchall; Fetchone] in
  run (init false) (Execute rows [lit "A"; lit "A"] None :: ops) =
  [OUnit; OOne (Some [Some 1; None]); OUnit; ORows [[Some 2; Some 5]; [Some 3; Some 6]]; ORows []; ORows [];
   OOne None].
Proof. exact fetch_nonvacuous. Qed.
Print Assumptions width_with_repeated_names.

(* reading cursor.description, sqlstate, sfqid ... between the fetch calls - at any points of any call sequence - changes
   no answer and not the final state *)
Theorem peek_erasure : forall ops s, outs_erase ops (run s ops) = run s (erase ops) /\ final s ops = final s (erase ops).
Proof.
  induction ops as [|o ops IH]; intros s; [split; reflexivity|].
  unfold erase. rewrite run_cons. cbn [outs_erase filter final]. fold (erase ops).
  destruct (is_peek o) eqn:P; cbn [negb].
  - destruct o; try discriminate. apply IH.
  - rewrite run_cons. cbn [final]. destruct (IH (fst (step s o))) as [Ro Fi]. rewrite Ro. auto.
Qed.
Print Assumptions peek_erasure.
