(* C10 - rewritten Snowflake functions return what Snowflake documents.
   sem_sf : Snowflake's documented meaning of the fragment (arithmetic, comparison, three-valued logic, CASE, COALESCE,
   ::date, EQUAL_NULL, [TRY_]TO_DECIMAL/TO_NUMBER/TO_NUMERIC, TO_DATE, DATEADD, DATEDIFF - arbitrarily nested);
   rewrite : what fakesnow + sqlglot turn it into; sem_duck : DuckDB's meaning of the result (DATE + INTERVAL is a
   TIMESTAMP, narrowing DECIMAL casts truncate, text -> DECIMAL rounds, date_diff counts boundaries ...). *)
From FS Require Import Sexp Expr ExprProofs.

(* for EVERY environment and EVERY expression of the fragment, however deeply the constructs are nested in each other,
   inside `supported`: the rewritten expression has in DuckDB the value AND the type the original has in Snowflake *)
Theorem rewrite_correct_partial : forall en e, supported en e = true -> sem_duck en (rewrite e) = sem_sf en e.
Proof.
  intros en e. induction e as [v|i|a IHa b IHb|a IHa b IHb|a IHa b IHb|a IHa b IHb|a IHa b IHb|a IHa b IHb|a IHa b IHb|a IHa|a IHa
                               |c IHc a IHa b IHb|a IHa b IHb|a IHa|a IHa b IHb|try a IHa p s|a IHa|u n IHn d IHd|u a IHa b IHb
                               |a IHa b IHb|try a IHa p s|a IHa|u k n IHn d IHd|u a IHa b IHb]; intros S; cbn in S; try discriminate;
    try reflexivity;
    try (apply andb_true_iff in S as [S1 S2]; cbn; rewrite (IHa S1), (IHb S2); reflexivity);
    try (cbn; rewrite (IHa S); reflexivity).
  (* `supported` is false at the DuckDB-only nodes (discriminate); the nodes the rewrite leaves in place go by the induction
     hypotheses; left are CASE and the three it changes *)
  - (* CASE *) apply andb_true_iff in S as [[S1 S2]%andb_true_iff S3].
    cbn. rewrite (IHc S1), (IHa S2), (IHb S3). reflexivity.
  - (* TO_DECIMAL *)
    apply andb_true_iff in S as [[[[Sa _]%andb_true_iff _]%andb_true_iff _]%andb_true_iff Hv].
    cbn. rewrite (IHa Sa). apply to_decimal_same.
    destruct (sem_sf en a) as [[| | u s0| | | u s0| | | ]|]; auto. apply Bool.eqb_prop, Hv.
  - (* DATEADD *)
    apply andb_true_iff in S as [[[Sn Sd]%andb_true_iff Ht%negb_true_iff]%andb_true_iff Hv].
    cbn [rewrite]. rewrite Ht.
    change (sem_sf en (EDateAdd u n d)) with (dateadd u (sem_sf en n) (sem_sf en d)). rewrite <- (IHn Sn), <- (IHd Sd).
    destruct (is_cast_date d && date_unit u) eqn:C; cbn [sem_duck]; rewrite sem_interval.
    + apply andb_true_iff in C as [C U]. apply plus_interval_date; [exact U|].
      intros us. rewrite (IHd Sd). apply cast_date_not_ts, C.
    + apply plus_interval_ts. intros dn E. rewrite (IHd Sd) in E. rewrite E in Hv. cbn [orb] in Hv. destruct u; (discriminate || reflexivity).
  - (* DATEDIFF *)
    apply andb_true_iff in S as [[[[Sa Sb]%andb_true_iff Ta%negb_true_iff]%andb_true_iff Tb%negb_true_iff]%andb_true_iff Hw].
    cbn [rewrite]. rewrite Ta, Tb. cbn [sem_duck]. rewrite (IHa Sa), (IHb Sb).
    apply (datediff_ext (diff_units_duck u) (diff_units u)). intros x y p q Ex Ey Px Py. rewrite Ex, Ey, Px, Py in Hw.
    apply diff_units_duck_same. destruct u; try exact I; [apply Bool.eqb_prop, Hw|].
    apply andb_true_iff in Hw as [P Q]. split; apply Z.leb_le; assumption.
Qed.
Print Assumptions rewrite_correct_partial.

(* outside `supported` the rewrite is wrong; each witness is a known finding.
   DATEADD on a DATE column (not a syntactic cast) returns a TIMESTAMP *)
Theorem dateadd_column_type_refuted : exists en e, sem_sf en e = Ok (VDate 18293) /\ sem_duck en (rewrite e) = Ok (VTs (18293 * day_us)).
Proof. exists [VDate 18292], (EDateAdd UDay (ELit (VInt 1)) (ECol 0)). vm_compute. split; reflexivity. Qed.
Print Assumptions dateadd_column_type_refuted.

(* TO_DECIMAL(1.45, 10, 1): Snowflake rounds to 1.5, DuckDB's DECIMAL -> DECIMAL cast truncates to 1.4 *)
Theorem decimal_narrowing_refuted : exists en e, sem_sf en e = Ok (VDec 15 1) /\ sem_duck en (rewrite e) = Ok (VDec 14 1).
Proof. exists [], (EToDecimal false (ELit (VDec 145 2)) 10 1). vm_compute. split; reflexivity. Qed.
Print Assumptions decimal_narrowing_refuted.

(* TRY_TO_NUMERIC('99.995', 4, 2): rounding carries to 100.00, which DuckDB lets through *)
Theorem decimal_round_overflow_refuted : exists en e, sem_sf en e = Ok VNull /\ sem_duck en (rewrite e) = Ok (VDec 10000 2).
Proof. exists [], (EToDecimal true (ELit (VNumText 99995 3)) 4 2). vm_compute. split; reflexivity. Qed.
Print Assumptions decimal_round_overflow_refuted.

(* DATEDIFF(week) across Monday 1969-12-29 is one less than the number of week boundaries *)
Theorem week_epoch_refuted : exists en e, sem_sf en e = Ok (VInt 2) /\ sem_duck en (rewrite e) = Ok (VInt 1).
Proof. exists [], (EDateDiff UWeek (dlit 1969 12 28) (dlit 1970 1 6)). vm_compute. split; reflexivity. Qed.
Print Assumptions week_epoch_refuted.

Theorem hour_epoch_refuted : exists en e, sem_sf en e = Ok (VInt 1) /\ sem_duck en (rewrite e) = Ok (VInt 0).
Proof. exists [], (EDateDiff UHour (ELit (VTs (-1800000000))) (ELit (VTs 1800000000))). vm_compute. split; reflexivity. Qed.
Print Assumptions hour_epoch_refuted.

(* TRY_ forms give NULL exactly where the plain forms fail *)
Theorem try_is_null_on_failure : forall a p s,
  to_decimal_with rescale_half_away rescale_half_away false a p s = Fail ->
  a <> Fail -> (forall b, a <> Ok (VBool b)) -> (forall d, a <> Ok (VDate d)) -> (forall t, a <> Ok (VTs t)) ->
  to_decimal_with rescale_half_away rescale_half_away true a p s = Ok VNull.
Proof.
  intros a p s H NF NB ND NT. destruct a as [[| z| u s0| b| t| u s0| d| d| t]|]; cbn in *;
    try destruct (fits _ p); try discriminate H; try reflexivity; [elim (NB b)|elim (ND d)|elim (NT t)|elim NF]; reflexivity.
Qed.
Print Assumptions try_is_null_on_failure.

(* the calendar both semantics share is a bijection with valid (y, m, d) on every day of 1900-01-01 .. 2100-12-31
   (an instance of ExprProofs.calendar_roundtrip, which says so of every day number; the check also compares the
   calendar with Python's datetime) *)
Theorem calendar_roundtrip_range : forall z, -25567 <= z < 47847 -> cal_ok z = true.
Proof. intros z _. apply calendar_roundtrip. Qed.
Print Assumptions calendar_roundtrip_range.

Example expr_holds_somewhere :
  supported [VNull; VDate 18322] ex_expr = true /\ sem_sf [VNull; VDate 18322] ex_expr = Ok (VDec 1235 2) /\
  supported [VNull; VDate 18322] (EDateAdd UMonth (ELit (VInt 1)) (dlit 2020 1 31)) = true /\
  sem_sf [] (EDateAdd UMonth (ELit (VInt 1)) (dlit 2020 1 31)) = Ok (VDate (days_from_civil 2020 2 29)).
Proof. vm_compute. repeat split. Qed.
Print Assumptions expr_holds_somewhere.
