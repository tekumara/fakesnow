(* C20 - patch() and the CLI switch the fake on and off cleanly. *)
From FS Require Import Sexp Cli Patch CliProofs PatchProofs.

(* split() never loses, duplicates or reorders an argument *)
Theorem split_partition : forall a, fst (split a) ++ snd (split a) = a.
Proof. intros a. apply firstn_skipn. Qed.
Print Assumptions split_partition.

(* for every list of fakesnow's own options (spaced, = and glued forms), every target form and
   ARBITRARY target arguments, the target is run with exactly its own arguments, in order *)
Theorem passthrough : forall opts tgt targs,
  forallb opt_ok opts = true -> tgt_ok tgt = true ->
  main (concat (map render_opt opts) ++ render_tgt tgt ++ targs) =
  ORun (tgt_is_module tgt) (tgt_name tgt) (tgt_name tgt :: targs) (last_db opts None).
Proof.
  intros opts tgt targs Ho Ht. unfold main. rewrite split_rendered, parse_rendered by assumption.
  pose proof (nonnil_nonempty _ (tgt_nonnil _ Ht)) as N.
  destruct (tgt_is_module tgt); cbv beta iota; rewrite N; reflexivity.
Qed.
Print Assumptions passthrough.

Example passthrough_holds_somewhere :
  let opts := [DEq true (lit "x"); DSp false (lit "dir"); DGl (lit "y")] in
  let tgt := TgMGl (lit "pytest") in
  forallb opt_ok opts = true /\ tgt_ok tgt = true /\
  main (concat (map render_opt opts) ++ render_tgt tgt ++ [lit "-m"; lit "integration"; lit "--db_path=z"])
  = ORun true (lit "pytest") [lit "pytest"; lit "-m"; lit "integration"; lit "--db_path=z"] (Some (lit "y")).
Proof. exact passthrough_nonvacuous. Qed.
Print Assumptions passthrough_holds_somewhere.

(* whatever the targets and however the block is left (normally, body raises, an import or an
   assert fails during set-up): every location holds what it held before - or, for a module that
   patch() had to import, the ORIGINAL function - and the standard targets are the originals *)
Theorem patch_restores : forall w extras body_raises, wf w ->
  imported w (after (patch extras body_raises w)) /\ wf (after (patch extras body_raises w)).
Proof.
  intros w extras br W. destruct (patch_entered extras br w) as (_ & -> & _); [now rewrite (proj1 W)|].
  pose proof (import_all_imported (0%nat :: 1%nat :: extras) w w W (imported_refl w)) as Im.
  exact (conj Im (imported_wf _ _ W Im)).
Qed.
Print Assumptions patch_restores.

(* inside the block every standard and extra target is a fake *)
Theorem patch_inside : forall w extras br wi,
  inside (patch extras br w) = Some wi ->
  forall t, In t (0%nat :: 1%nat :: extras) -> get wi t = VMock.
Proof.
  intros w extras br wi. destruct (is_mock (get w 0%nat)) eqn:M.
  - rewrite patch_refused by exact M. discriminate.
  - exact (proj2 (proj2 (patch_entered extras br w M)) wi).
Qed.
Print Assumptions patch_inside.

Theorem nested_refused_without_damage : forall w extras br, get w 0%nat = VMock ->
  let r := patch extras br w in res r = RRefused /\ after r = w /\ inside r = None.
Proof. intros w extras br H. cbv zeta. rewrite patch_refused by now rewrite H. auto. Qed.
Print Assumptions nested_refused_without_damage.

(* whenever patch() got as far as creating the fake instance (it did not refuse), the ExitStack that closes it has run *)
Theorem instance_closed_on_every_exit : forall w extras br,
  res (patch extras br w) <> RRefused -> closed (patch extras br w) = true.
Proof.
  intros w extras br. destruct (is_mock (get w 0%nat)) eqn:M.
  - rewrite patch_refused by exact M. contradiction.
  - intros _. exact (proj1 (patch_entered extras br w M)).
Qed.
Print Assumptions instance_closed_on_every_exit.

(* a second patch() after the first has exited finds a world it can restore in its turn *)
Theorem reentry_ok : forall w e1 b1 e2 b2, wf w ->
  imported (after (patch e1 b1 w)) (after (patch e2 b2 (after (patch e1 b1 w)))).
Proof. intros. apply patch_restores. apply patch_restores. assumption. Qed.
Print Assumptions reentry_ok.

Example patch_holds_somewhere :
  let w := [VOrig true; VOrig false; VOrig true; VUnloaded true; VOther] in
  wf w /\
  after (patch [2%nat; 3%nat; 2%nat] true w) = [VOrig true; VOrig false; VOrig true; VOrig true; VOther] /\
  res (patch [2%nat; 3%nat; 2%nat] true w) = RBodyRaised /\
  res (patch [3%nat; 4%nat] false w) = RAssert /\
  after (patch [3%nat; 4%nat] false w) = [VOrig true; VOrig false; VOrig true; VOrig true; VOther].
Proof. exact patch_nonvacuous. Qed.
Print Assumptions patch_holds_somewhere.
