(* C13 - transactions are atomic, isolated between connections, and sticky to theirs. *)
From FS Require Import Sexp Tx TxProofs.

(* For ANY prior history (world w), any connection c outside a transaction, any transaction body
   (c: DML / queries / failing statements; the other connections: arbitrary statements, interleaved in
   any way) and any continuation h2:  BEGIN ... ROLLBACK leaves no trace. *)
Theorem rollback_no_trace : forall w c mid h2,
  cget (conns w) c = NoTx -> (c < length (conns w))%nat -> tx_body c mid = true ->
  let h := (c, Begin) :: mid ++ (c, Rollback) :: h2 in
  let h' := others c mid ++ h2 in
  run_o c w ((c, Begin) :: mid) = run w (others c mid) /\
  run (final w ((c, Begin) :: mid ++ [(c, Rollback)])) h2 = run (final w (others c mid)) h2 /\
  weq (final w h) (final w h').
Proof.
  intros w c mid h2 N Lt B. destruct (tx_as_if w c mid N Lt B) as (Ob & R & _).
  cbv zeta. rewrite !R, app_nil_r. split; [exact Ob|split; [reflexivity|apply weq_refl]].
Qed.
Print Assumptions rollback_no_trace.

(* BEGIN ... COMMIT: invisible to the others until the COMMIT, then visible all at once - exactly as
   if c had performed its writes at the COMMIT point, outside any transaction *)
Theorem commit_atomic_visibility : forall w c mid h2,
  cget (conns w) c = NoTx -> (c < length (conns w))%nat -> tx_body c mid = true ->
  let h := (c, Begin) :: mid ++ (c, Commit) :: h2 in
  let h' := others c mid ++ replay c (writes c mid) ++ h2 in
  run_o c w ((c, Begin) :: mid) = run w (others c mid) /\
  run (final w ((c, Begin) :: mid ++ [(c, Commit)])) h2 = run (final w (others c mid ++ replay c (writes c mid))) h2 /\
  weq (final w h) (final w h').
Proof.
  intros w c mid h2 N Lt B. destruct (tx_as_if w c mid N Lt B) as (Ob & _ & C).
  cbv zeta. rewrite !C, app_nil_r. split; [exact Ob|split; [reflexivity|apply weq_refl]].
Qed.
Print Assumptions commit_atomic_visibility.

(* inside its transaction a connection sees all of its own writes (whichever cursor issues the query) *)
Theorem read_own_writes : forall c mid ws w w', sim c ws w w' -> tx_body c mid = true ->
  exists l, snd (step (final w mid) (c, Select)) = ORows l /\ forall r, In r (ws ++ writes c mid) -> In r l.
Proof.
  intros c mid ws w w' Sm B. apply sim_spec in Sm as [I _].
  destruct (body_forgotten c mid ws w I B) as [I' _]. destruct (select_inside _ _ _ I') as [sn E].
  exists (sn ++ ws ++ writes c mid). split; [exact E|]. intros r H. apply in_or_app. auto.
Qed.
Print Assumptions read_own_writes.

(* outside a transaction every statement is committed at once; COMMIT/ROLLBACK are no-ops *)
Theorem autocommit_and_noop_commit : forall w c r, cget (conns w) c = NoTx ->
  committed (fst (step w (c, Insert r))) = committed w ++ [r] /\
  weq (fst (step w (c, Commit))) w /\ snd (step w (c, Commit)) = OStatus /\
  weq (fst (step w (c, Rollback))) w /\ snd (step w (c, Rollback)) = OStatus.
Proof.
  intros w c r N. rewrite !step_outside by congruence. cbn [local fst snd committed]. destruct w. auto using weq_refl.
Qed.
Print Assumptions autocommit_and_noop_commit.

(* a failing statement inside a transaction keeps the transaction and its writes *)
Theorem failing_stmt_keeps_tx : forall w c sn own, cget (conns w) c = Active sn own -> (c < length (conns w))%nat ->
  cget (conns (fst (step w (c, Fail)))) c = Active sn own /\ committed (fst (step w (c, Fail))) = committed w.
Proof. intros w c sn own E _. rewrite (fail_inside w c sn own E). auto. Qed.
Print Assumptions failing_stmt_keeps_tx.

Example tx_holds_somewhere :
  run (init 2) [(0, Begin); (0, Insert 1); (1, Select); (1, Insert 2); (0, Select); (0, Commit); (1, Select);
                (1, Begin); (1, Insert 3); (0, Select); (1, Rollback); (0, Select); (0, Commit)]%nat
  = [OEmpty; OInserted; ORows []; OInserted; ORows [1]; OEmpty; ORows [2; 1];
     OEmpty; OInserted; ORows [2; 1]; OEmpty; ORows [2; 1]; OStatus].
Proof. exact tx_nonvacuous. Qed.
Print Assumptions tx_holds_somewhere.
