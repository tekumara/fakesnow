(* C14 - connect() does what its options say in every configuration. *)
From FS Require Import Sexp Connect ConnectProofs.

(* For EVERY catalog (any databases/schemas, attached or only on disk), every argument combination
   (any names, any letter case, given or not) and both auto-create flags: connect succeeds, and the
   record `spec` holds: names reported upper-cased; existing objects kept; only the requested
   database/schema created, and only when the flag allows; current database (schema) set exactly when
   the database (schema) exists afterwards; the engine's SET schema agrees with what is reported. *)
Theorem connect_total_and_exact : forall w c, wfw w ->
  exists w' s, connect w c = Some (w', s) /\ spec w c w' s.
Proof. exact connect_spec. Qed.
Print Assumptions connect_total_and_exact.

(* any number of connects, in any order, with any options: none raises *)
Theorem connects_total : forall cs w, wfw w -> all_ok w cs.
Proof.
  induction cs as [|c cs IH]; intros w W; cbn; [exact I|].
  destruct (connect_spec w c W) as (w' & s & -> & Sp). apply IH, Sp.
Qed.
Print Assumptions connects_total.

Theorem empty_instance_wf : wfw {| dbs := []; attached := [] |}.
Proof. split; cbn; intros; discriminate. Qed.
Print Assumptions empty_instance_wf.

Example connect_holds_somewhere :
  let c := {| database := Some (lit "db1"); schema := Some (lit "s2"); create_db := true; create_sch := true |} in
  match connect w0 c with
  | Some (w', s) => schema_exists w' (lit "DB1") (lit "S1") = true /\ schema_exists w' (lit "DB1") (lit "S2") = true /\
                    sdb s = Some (lit "DB1") /\ sch_set s = true /\ duck s = Some (lit "DB1", lit "S2")
  | None => False
  end.
Proof. exact connect_nonvacuous. Qed.
Print Assumptions connect_holds_somewhere.
