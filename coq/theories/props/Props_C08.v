(* C08 - bound parameters arrive as data, whatever they contain. *)
From FS Require Import Sexp Codec CodecProofs.

(* FOR ALL strings s (any code points: quotes, backslashes, newlines, %, $, ?, ;, comment markers ...) and
   all following text: the connector's quoted+escaped form of s is read by the Snowflake tokenizer as ONE
   string token with content s, and the text after it is left exactly as it was - a parameter can never
   end its literal early or swallow what follows *)
Theorem structure_preserved : forall s rest, starts_q rest = false ->
  sf_lex (quote (escape s) ++ rest) = Some (s, rest).
Proof. exact (sf_lex_spelled esc_c esc_c_spells). Qed.
Print Assumptions structure_preserved.

Theorem duck_literal_roundtrip : forall s rest, starts_q rest = false -> duck_lex (duck_gen s ++ rest) = Some (s, rest).
Proof.
  intros s rest H. unfold duck_gen. cbn [app duck_lex]. rewrite Z.eqb_refl, <- app_assoc.
  apply body_reads; [exact duck_body_gen_c|apply duck_body_end, H].
Qed.
Print Assumptions duck_literal_roundtrip.

Theorem literal_roundtrip : forall s,
  exists lit_, sf_lex (quote (escape s)) = Some (lit_, []) /\ duck_lex (duck_gen lit_) = Some (s, []).
Proof.
  intros s. exists s. rewrite <- (app_nil_r (quote (escape s))), <- (app_nil_r (duck_gen s)).
  split; [apply structure_preserved|apply duck_literal_roundtrip]; reflexivity.
Qed.
Print Assumptions literal_roundtrip.

(* python's % puts the quoted values at the placeholders verbatim, in order, and never re-scans them *)
Theorem pyfmt_positional : forall segs vals, forallb seg_ok segs = true -> holes segs = length vals ->
  pyfmt (render segs) vals = Some (fill segs vals).
Proof.
  induction segs as [|g segs IH]; intros vals Ok Hn; [destruct vals; [reflexivity|discriminate]|].
  cbn [forallb] in Ok. apply andb_true_iff in Ok as [Og Ok].
  change (render (g :: segs)) with (render1 g ++ render segs). destruct g as [l| |]; cbn in *.
  - rewrite pyfmt_lit, IH by assumption. reflexivity.
  - rewrite IH by assumption. reflexivity.
  - destruct vals as [|v vs]; [discriminate|]. injection Hn as Hn. rewrite IH by assumption. reflexivity.
Qed.
Print Assumptions pyfmt_positional.

Example codec_holds_somewhere :
  let s := [97; q; bs; 10; 37; 115; 36; 120; 59; 45; 45] in
  bind (lit "select %s, '100%%' from t where c = %s") [s; lit "it's"] =
    Some (lit "select " ++ quote (escape s) ++ lit ", '100%' from t where c = " ++ quote (escape (lit "it's"))) /\
  sf_lex (quote (escape s) ++ lit ", '100%'") = Some (s, lit ", '100%'") /\
  duck_lex (duck_gen s) = Some (s, []) /\ sf_lex (sf_gen s) = Some (s, []).
Proof. exact codec_nonvacuous. Qed.
Print Assumptions codec_holds_somewhere.
