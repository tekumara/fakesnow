(* C15 - session variables substitute exactly, per connection. *)
From FS Require Import Sexp Vars VarsProofs.

(* inline_variables cuts the statement into pieces (_split_protected, fix 83dbaa3): complete string literals,
   quoted identifiers, $$strings$$ and comments are handed on untouched, every other piece goes through inline_text.
   Theorems about inline_text speak about one piece of SQL text proper; plain_is_text lifts them to whole statements without
   literals/comments, literal_protected says what happens around a literal. *)

(* The one-pass regex substitution of variables.py (after fix 7b219e4) IS the specification "every $word stands for the value of
   the variable of that name (any letter case)", for every text built from '$'-free literal segments and references and for EVERY set
   of variables - names that are prefixes of each other, values containing '$' signs or things that look like references (a value is
   inserted as it is and never scanned again). *)
Theorem inline_is_expand : forall vs segs,
  wf segs = true -> forallb (defined vs) segs = true ->
  inline_text vs (render segs) = inl (render (expand vs segs)).
Proof.
  intros vs segs W D. rewrite (inline_text_segs vs segs W).
  pose proof (inline_segs_app vs segs [] D) as E. cbn [inline_segs prefix_res] in E. rewrite !app_nil_r in E. exact E.
Qed.
Print Assumptions inline_is_expand.

(* the first undefined reference raises "Session variable '$NAME' does not exist" (upper-cased) *)
Theorem undefined_raises_first : forall vs pre w post,
  wf (pre ++ Ref w :: post) = true ->
  forallb (defined vs) pre = true -> lookup vs w = None ->
  inline_text vs (render (pre ++ Ref w :: post)) = inr (upper (dollar :: w)).
Proof.
  intros vs pre w post W D U. rewrite (inline_text_segs vs _ W), (inline_segs_app vs pre _ D). cbn [inline_segs]. rewrite U. reflexivity.
Qed.
Print Assumptions undefined_raises_first.

Theorem non_reference_text_untouched : forall vs s, dollar_free s = true ->
  inline_text vs s = inl s.
Proof.
  intros vs s D. pose proof (inline_is_expand vs [Lit s] (eq_trans (andb_true_r _) D) eq_refl) as H.
  cbn in H. rewrite app_nil_r in H. exact H.
Qed.
Print Assumptions non_reference_text_untouched.

(* nothing is lost or invented by the cutting *)
Theorem split_concat : forall s, concat (map snd (split_protected s)) = s.
Proof. intros s. exact (split_fuel_concat _ s []). Qed.
Print Assumptions split_concat.

(* a statement in which no protected piece can start is one piece of SQL text *)
Theorem plain_is_text : forall vs s, plainb s = true -> inline_variables vs s = inline_text vs s.
Proof.
  intros vs s P. unfold inline_variables. rewrite (split_protected_plain s (plain_unprotected s [] P eq_refl)).
  cbn [inline_pieces]. destruct (inline_text vs s); [rewrite app_nil_r|]; reflexivity.
Qed.
Print Assumptions plain_is_text.

(* a string literal is handed on character for character, whatever variable references stand before and after it; a '$name'
   inside it is neither substituted nor reported as undefined *)
Theorem literal_protected : forall vs pre body post, plainb pre = true ->
  forallb (fun c => negb (c =? c_sq) && negb (c =? c_bs)) body = true ->
  (match post with d :: _ => d <> c_sq | [] => True end) ->
  inline_variables vs (pre ++ sq_literal body ++ post) =
  match inline_text vs pre with
  | inr e => inr e
  | inl p' => match inline_variables vs post with inl o => inl (p' ++ sq_literal body ++ o) | inr e => inr e end
  end.
Proof.
  intros vs pre body post P B Hp.
  exact (piece_protected vs pre _ post (plain_unprotected pre (sq_literal body ++ post) P eq_refl)
           (protect_here_sq_literal body post B Hp)).
Qed.
Print Assumptions literal_protected.

Example cost_literal_untouched : forall vs, inline_variables vs (lit "select 'cost $5'") = inl (lit "select 'cost $5'").
Proof. exact cost_literal_untouched_l. Qed.
Print Assumptions cost_literal_untouched.

(* SET/UNSET/use on one connection never changes the variables of another *)
Theorem per_connection : forall st o c', conn_of o <> c' -> sget (fst (vstep st o)) c' = sget st c'.
Proof. intros st [c n v|c n|c s] c' H; cbn [vstep fst conn_of] in *; auto using sget_sset_other. Qed.
Print Assumptions per_connection.

Theorem unset_removes : forall vs n, NoDup (map fst vs) -> ~ In n (map fst (vunset vs n)).
Proof. intros vs n ND H. exact (proj2 (in_vunset vs n n ND H) eq_refl). Qed.
Print Assumptions unset_removes.

Theorem set_defines : forall vs n v, In (n, v) (vset vs n v).
Proof.
  induction vs as [|[n' v'] vs IH]; intros n v; cbn; [auto|].
  destruct (Common.str_eqb_spec n' n) as [->|]; cbn; auto.
Qed.
Print Assumptions set_defines.

(* the store read as a map: a reference in any letter case yields the value last SET for that name, provided no stored name differs
   from it in letter case only (names arrive upper-cased; harness/c15.py checks on every run that no store holds two names equal
   ignoring case) *)
Theorem set_then_reference : forall vs n v w, only_spelling vs n = true -> ci_eqs n w = true -> lookup (vset vs n v) w = Some v.
Proof.
  unfold lookup, only_spelling. induction vs as [|[n' v'] vs IH]; cbn [vset map fst forallb find]; intros n v w Hvs Hw.
  - rewrite Hw. reflexivity.
  - apply andb_true_iff in Hvs as [Hn' Hvs]. destruct (Common.str_eqb_spec n' n) as [->|N]; cbn [find fst].
    + rewrite Hw. reflexivity.
    + destruct (ci_eqs n' w) eqn:E; [|exact (IH n v w Hvs Hw)].
      (* n' and n both match the reference w, so they differ in letter case only *)
      rewrite (ci_eqs_common n' n w E Hw) in Hn'. discriminate Hn'.
Qed.
Print Assumptions set_then_reference.

Theorem set_then_reference_canonical : forall vs n v w,
  forallb canon (map fst vs) = true -> canon n = true -> ci_eqs n w = true -> lookup (vset vs n v) w = Some v.
Proof. intros vs n v w Hvs Hn. exact (set_then_reference vs n v w (canon_only_spelling vs n Hvs Hn)). Qed.
Print Assumptions set_then_reference_canonical.

(* SET keeps the shape set_then_reference asks of the store, for a name m, if the name it sets is m itself or differs
   from it in more than letter case *)
Theorem set_keeps_one_spelling : forall vs n v m,
  only_spelling vs m = true -> implb (ci_eqs n m) (str_eqb n m) = true -> only_spelling (vset vs n v) m = true.
Proof.
  unfold only_spelling. induction vs as [|[n' v'] vs IH]; cbn [vset map fst forallb]; intros n v m Hvs Hn.
  - rewrite Hn. reflexivity.
  - apply andb_true_iff in Hvs as [Hn' Hvs]. destruct (str_eqb n' n); cbn [map fst forallb]; rewrite Hn'; cbn [andb]; auto.
Qed.
Print Assumptions set_keeps_one_spelling.

(* SET of one name leaves every other name's value alone *)
Theorem set_frames_others : forall vs n v w, ci_eqs n w = false -> lookup (vset vs n v) w = lookup vs w.
Proof.
  unfold lookup. induction vs as [|[n' v'] vs IH]; cbn [vset find fst]; intros n v w Hw.
  - rewrite Hw. reflexivity.
  - destruct (Common.str_eqb_spec n' n) as [->|N]; cbn [find fst].
    + rewrite Hw. reflexivity.
    + destruct (ci_eqs n' w); [reflexivity|exact (IH n v w Hw)].
Qed.
Print Assumptions set_frames_others.

Example set_reference_holds_somewhere :
  let vs := [(lit "A", lit "1"); (lit "B_2", lit "x")] in
  forallb canon (map fst vs) = true /\ canon (lit "B_2") = true /\ ci_eqs (lit "B_2") (lit "b_2") = true /\
  lookup (vset vs (lit "B_2") (lit "y")) (lit "b_2") = Some (lit "y") /\ lookup (vset vs (lit "B_2") (lit "y")) (lit "a") = Some (lit "1").
Proof. exact set_lookup_nonvacuous. Qed.
Print Assumptions set_reference_holds_somewhere.

Example value_with_dollars :
  inline_text [(lit "P", lit "'$HOME/x $p'"); (lit "HOME", lit "7")] (lit "select $p, $home") = inl (lit "select '$HOME/x $p', 7").
Proof. exact value_with_dollars_l. Qed.
Print Assumptions value_with_dollars.

Example inline_holds_somewhere :
  let vs := [(lit "VAR1", lit "5"); (lit "VAR10", lit "'x y'"); (lit "A_B", lit "1 + 2")] in
  let segs := [Lit (lit "select "); Ref (lit "var10"); Lit (lit ", "); Ref (lit "Var1"); Lit (lit "+"); Ref (lit "a_b")] in
  wf segs = true /\ forallb (defined vs) segs = true /\
  inline_text vs (render segs) = inl (lit "select 'x y', 5+1 + 2").
Proof. exact inline_nonvacuous. Qed.
Print Assumptions inline_holds_somewhere.
