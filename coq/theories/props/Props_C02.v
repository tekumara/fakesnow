(* C02 - unquoted identifiers fold to upper case; quoted ones are kept verbatim; the complete outcome of a
   statement does not depend on the letter case of its keywords and unquoted identifiers. *)
From FS Require Import Sexp Ident IdentProofs.

(* for ALL strings and ALL re-spellings (any subset of positions flipped) *)
Theorem upper_recase : forall mask s, upper (recase mask s) = upper s.
Proof. exact IdentProofs.upper_recase. Qed.
Print Assumptions upper_recase.

Theorem norm_respell : forall m i, norm (respell m i) = norm i.
Proof. exact IdentProofs.norm_respell. Qed.
Print Assumptions norm_respell.

Theorem quoted_verbatim : forall t, norm {| itext := t; iquoted := true |} = t.
Proof. reflexivity. Qed.
Print Assumptions quoted_verbatim.

(* the reported form of an unquoted identifier is in upper case: upper-casing it again changes nothing, and it
   contains no ASCII lower-case letter *)
Theorem unquoted_reported_upper : forall t, let n := norm {| itext := t; iquoted := false |} in
  upper n = n /\ forallb (fun c => negb (is_ascii_lower c)) n = true.
Proof.
  intros t. cbn. split; [apply upper_idem|].
  apply forallb_forall. intros c (x & <- & _)%in_map_iff. rewrite up_not_lower. reflexivity.
Qed.
Print Assumptions unquoted_reported_upper.

(* the state machine of C03 (catalog + per-connection contexts, guards 90105/90106, USE, CREATE/DROP, name resolution)
   behind upper_case_unquoted_identifiers: same new world and same result for every re-spelling of every statement ... *)
Theorem step_respell : forall w c o m, sstep w c (respell_op m o) = sstep w c o.
Proof. intros. unfold sstep. rewrite norm_op_respell. reflexivity. Qed.
Print Assumptions step_respell.

(* ... and of every multi-connection history, each statement re-spelled independently: all results, all reported
   contexts and all catalogs along the way are equal *)
Theorem run_respell : forall h ms w, srun w (respell_hist ms h) = srun w h.
Proof.
  intros h ms w. unfold srun. f_equal. revert ms. induction h as [|co h IH]; intros [|m ms]; try reflexivity.
  cbn. rewrite norm_op_respell, IH. reflexivity.
Qed.
Print Assumptions run_respell.

(* identifier equality as MERGE uses it (checks.py:73) *)
Theorem ident_eq_respell : forall m m' a b, ident_eq (respell m a) (respell m' b) = ident_eq a b.
Proof. intros. unfold ident_eq. rewrite !IdentProofs.norm_respell. reflexivity. Qed.
Print Assumptions ident_eq_respell.

(* every keyword test written  x.upper() == "KW"  is spelling-independent; one written  x == "KW"  is not *)
Theorem kw_is_recase : forall kw m s, kw_is kw (recase m s) = kw_is kw s.
Proof. intros. unfold kw_is. rewrite IdentProofs.upper_recase. reflexivity. Qed.
Print Assumptions kw_is_recase.

Theorem kw_exact_refuted : exists kw m s, kw_is_exact kw (recase m s) <> kw_is_exact kw s.
Proof. exists (lit "UNSET"), [true], (lit "UNSET"). vm_compute. discriminate. Qed.
Print Assumptions kw_exact_refuted.

(* status messages name the object in its reported form *)
Theorem ddl_status_respell : forall k m s, Dml.ddl_status k (recase m s) false = Dml.ddl_status k s false.
Proof. intros. unfold Dml.ddl_status, Dml.reported_name. rewrite IdentProofs.upper_recase. reflexivity. Qed.
Print Assumptions ddl_status_respell.

Example respell_holds_somewhere :
  respell [true; false; true; true] (ex_id "myTab_1" false) = ex_id "MytAb_1" false /\
  norm (ex_id "myTab_1" false) = lit "MYTAB_1" /\ norm (ex_id "myTab_1" true) = lit "myTab_1" /\
  respell [true; true] (ex_id "myTab_1" true) = ex_id "myTab_1" true /\
  ident_eq (ex_id "t2" false) (ex_id "T2" true) = true /\ ident_eq (ex_id "t2" true) (ex_id "T2" false) = false.
Proof. vm_compute. repeat split. Qed.
Print Assumptions respell_holds_somewhere.
