(* C12 - MERGE leaves the target as Snowflake's MERGE would, with true counts.
   fake_target / fake_counts : the code (transforms_merge.py: merge_candidates with the index of the first applicable
   clause, then one DELETE / UPDATE / INSERT per clause re-joined against it, run one after another; COUNT_IF counts);
   spec_target / spec_counts : Snowflake's row-wise semantics. Full statement: forall deterministic merges they agree.
   It is FALSE of the code (dupkey_refuted, key_assign_refuted, insert_first_refuted, counts_null_refuted,
   not_atomic_refuted below - all known findings); it is proved on `dom`. *)
From FS Require Import Sexp Merge MergeProofs.

(* for ALL targets, sources (any sizes, NULL keys, duplicate keys), ON column pairs, clause lists and conditions inside dom
   = deterministic && op_consistent && no_key_assign && inserts_last *)
Theorem merge_correct_partial : forall m tgt src, dom m tgt src = true -> fake_target m tgt src = spec_target m tgt src.
Proof.
  intros m tgt src D. unfold dom in D. rewrite !andb_true_iff in D. destruct D as [[[Hdet Hcons] Hnka] Hil].
  unfold fake_target, spec_target. rewrite run_split. f_equal; [apply matched_rows|apply inserted_rows]; assumption.
Qed.
Print Assumptions merge_correct_partial.

(* op_consistent is guaranteed when WHEN MATCHED conditions mention only source columns ... *)
Theorem src_only_consistent : forall m tgt src, conds_src_only m = true -> op_consistent m tgt src = true.
Proof. intros m tgt src H. apply op_consistent_spec. intros s t1 t2 _ _ _ _ _. apply first_op_src_only. exact H. Qed.
Print Assumptions src_only_consistent.

(* ... or when no two target rows share a source partner *)
Theorem uniq_keys_consistent : forall m tgt src, uniq_keys m tgt src = true -> op_consistent m tgt src = true.
Proof.
  intros m tgt src H. apply op_consistent_spec. intros s t1 t2 Hs H1 H2 J1 J2.
  rewrite (uniq_keys_spec _ _ _ _ _ _ H Hs H1 H2 J1 J2). reflexivity.
Qed.
Print Assumptions uniq_keys_consistent.

(* for EVERY deterministic merge with at least one candidate row the status row holds Snowflake's counts *)
Theorem counts_correct_partial : forall m tgt src, deterministic m tgt src = true -> cands m tgt src <> [] ->
  fake_counts m tgt src = spec_counts m tgt src.
Proof.
  intros m tgt src Hdet Hne. unfold fake_counts, spec_counts.
  destruct (cands m tgt src) eqn:E; [contradiction|]. rewrite <- E.
  cbn [flat_map]. rewrite !(count_kind_spec m tgt src _ Hdet). reflexivity.
Qed.
Print Assumptions counts_correct_partial.

(* nothing to do: Snowflake reports 0, COUNT_IF over the empty merge_candidates reports NULL *)
Theorem counts_null_refuted : exists m tgt src, dom m tgt src = true /\ fake_counts m tgt src <> spec_counts m tgt src.
Proof. exists (m_of [MDelete CTrue]), [r3 1 10 100], []. split; [reflexivity|]. vm_compute. discriminate. Qed.
Print Assumptions counts_null_refuted.

(* two target rows with key 2, only the first satisfies the target-side condition: both are deleted *)
Theorem dupkey_refuted : exists m tgt src, deterministic m tgt src = true /\ no_key_assign m = true /\ inserts_last (clauses m) = true /\
  fake_target m tgt src <> spec_target m tgt src.
Proof.
  exists (m_of [MDelete (CCmp Tgt 1 0 20)]), [r3 2 20 200; r3 2 22 222], [r3 2 21 201].
  repeat split; try reflexivity. vm_compute. discriminate.
Qed.
Print Assumptions dupkey_refuted.

(* the first clause moves key 2 to key 3; the DELETE clause then re-joins the moved row with the candidate of key 3 *)
Theorem key_assign_refuted : exists m tgt src, deterministic m tgt src = true /\ op_consistent m tgt src = true /\ inserts_last (clauses m) = true /\
  fake_target m tgt src <> spec_target m tgt src.
Proof.
  exists (m_of [MUpdate (CCmp Src 1 0 3) [(0%nat, SCol 1)]; MDelete CTrue]), [r3 2 20 200; r3 3 30 300], [r3 2 3 201; r3 3 31 301].
  repeat split; try reflexivity. vm_compute. discriminate.
Qed.
Print Assumptions key_assign_refuted.

(* the row inserted for source key 4 carries key 2 and is deleted by the later WHEN MATCHED THEN DELETE *)
Theorem insert_first_refuted : exists m tgt src, deterministic m tgt src = true /\ op_consistent m tgt src = true /\ no_key_assign m = true /\
  fake_target m tgt src <> spec_target m tgt src.
Proof.
  exists (m_of [NInsert CTrue [0; 1]%nat [SCol 1; SCol 2]; MDelete CTrue]), [r3 2 20 200], [r3 2 21 201; r3 4 2 401].
  repeat split; try reflexivity. vm_compute. discriminate.
Qed.
Print Assumptions insert_first_refuted.

(* "applies all of its effects or none" is false: the exploded statements run one after another;
   a failure after the first of them leaves a state that is neither the old nor the new target *)
Theorem not_atomic_refuted : exists m tgt src k, dom m tgt src = true /\
  fake_prefix m tgt src k <> tgt /\ fake_prefix m tgt src k <> fake_target m tgt src.
Proof.
  exists (m_of [MDelete CTrue; NInsert CTrue [0; 1; 2]%nat [SCol 0; SCol 1; SConst None]]), [r3 1 10 100; r3 2 20 200], [r3 2 21 201; r3 4 41 401], 1%nat.
  split; [reflexivity|]. split; vm_compute; discriminate.
Qed.
Print Assumptions not_atomic_refuted.

Example merge_holds_somewhere : dom ex_m ex_tgt ex_src = true /\
  fake_target ex_m ex_tgt ex_src =
    [r3 1 10 100; r3 3 31 7; [None; Some 1; Some 1]; [Some 4; Some 41; None]; [Some 5; None; Some 5]; [None; None; Some 2]].
Proof. split; reflexivity. Qed.
Print Assumptions merge_holds_somewhere.
