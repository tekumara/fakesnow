(* C19 - concurrent sessions behave as if their statements ran one at a time.
   Model: every fake operation is an automaton issuing atomic engine calls; sessions are interleaved by an
   ARBITRARY schedule at call boundaries (run_sched), with or without the connect lock of instance.py. *)
From FS Require Import Sexp Steps StepsProofs StepsMerge.

(* For EVERY number n of sessions connecting to the same database and schema (auto-created), EVERY schedule,
   with or without the lock: at every reachable point every session is `good` (no call has failed or can fail: each
   program point's precondition on the engine holds), and once all have finished every connect has returned success
   and the database is attached, bootstrapped and has the schema - the outcome of any serial order. *)
Theorem connects_all_succeed : forall d s lk n sch,
  let '(e, ss) := run_sched lk sch (e0, map mk_sess (repeat [Connect d s] n)) in
  Forall (good d s e) ss /\
  (all_done ss = true -> n <> 0%nat -> has_db e d = true /\ booted e d = true /\ has_sch e d s = true /\ Forall (fun x => done x = [AOk]) ss).
Proof.
  intros d s lk n sch. pose proof (run_sched_inv _ (inv_turn d s) lk sch _ (inv_init d s n)) as I.
  pose proof (run_sched_length lk sch (e0, map mk_sess (repeat [Connect d s] n))) as L.
  destruct (run_sched lk sch _) as [e ss]. split; [exact (proj1 I)|]. intros AD Hn. apply (inv_done d s e ss I AD).
  intros ->. cbn in L. rewrite map_length, repeat_length in L. congruence.
Qed.
Print Assumptions connects_all_succeed.

(* "no statement hangs": without the lock, EVERY schedule that gives each of the n sessions at least 8 turns finishes every
   connect (each own turn moves a connect strictly closer to its end, whatever the others do in between; 8 because a connect
   that cannot fail stays within the program points 0..7: `rank`, `req_below` in StepsProofs) *)
Theorem connects_terminate : forall d s n sch, (forall i, (i < n)%nat -> (8 <= occ i sch)%nat) ->
  all_done (snd (run_sched false sch (e0, map mk_sess (repeat [Connect d s] n)))) = true.
Proof.
  intros d s n sch H. apply connects_progress with (d := d) (s := s); [apply inv_init|].
  intros i x N. destruct (init_rank d s n i x N) as [L ->]. exact (H i L).
Qed.
Print Assumptions connects_terminate.

(* For EVERY number of sessions inserting any values into one existing table under EVERY schedule: every insert
   succeeds and the table ends with its old rows plus exactly the inserted values *)
Theorem inserts_not_lost : forall k lk sch e rows (scripts : list (list Z)),
  klook (tbls e) k = Some rows ->
  let '(e', ss) := run_sched lk sch (e, map (fun vs => mk_sess (map (Insert k) vs)) scripts) in
  Forall (fun x => Forall (fun a => a = AOk) (done x)) ss /\
  (all_done ss = true -> exists rows', klook (tbls e') k = Some rows' /\ Permutation.Permutation rows' (rows ++ concat scripts)).
Proof.
  intros k lk sch e rows scripts Lk. pose proof (run_sched_inv _ (invI_turn k _) lk sch _ (invI_init k e rows scripts Lk)) as I.
  destruct (run_sched lk sch _) as [e' ss]. exact (invI_done k _ e' ss I).
Qed.
Print Assumptions inserts_not_lost.

(* progress (kernel computation on instances): round-robin completion finishes every session, same final engine *)
Example connects_complete :
  all_done (snd (run_all true [0; 1; 0; 1; 1; 0]%nat [[Connect DB SC]; [Connect DB SC]])) = true /\
  all_done (snd (run_all false [0; 1; 2; 2; 1; 0; 0; 1]%nat [[Connect DB SC]; [Connect DB SC]; [Connect DB SC]])) = true /\
  fst (run_all false [0; 1; 2; 2; 1; 0; 0; 1]%nat [[Connect DB SC]; [Connect DB SC]; [Connect DB SC]]) = fst (run_all false [] [[Connect DB SC]]).
Proof. vm_compute. repeat split. Qed.
Print Assumptions connects_complete.

(* "a statement carried out in several internal steps is never observed half-done" is FALSE:
   an observer scheduled between the two calls of CREATE TABLE ... COMMENT sees the table without its comment,
   which neither serial order shows *)
Theorem torn_create_table_refuted :
  exists sch, existsb is_torn (done (nth 2 (snd (run_all true sch [setup; [CreateTable TK (Some (lit "c"))]; [Meta TK]])) (mk_sess []))) = true /\
  forall serial, In serial [[0; 0; 0; 0; 0; 0; 0; 0; 1; 1; 2]; [0; 0; 0; 0; 0; 0; 0; 0; 2; 1; 1]]%nat ->
    existsb is_torn (done (nth 2 (snd (run_all true serial [setup; [CreateTable TK (Some (lit "c"))]; [Meta TK]])) (mk_sess []))) = false.
Proof.
  exists [0; 0; 0; 0; 0; 0; 0; 0; 1; 2; 1]%nat. split; [vm_compute; reflexivity|].
  intros serial [<-|[<-|[]]]; vm_compute; reflexivity.
Qed.
Print Assumptions torn_create_table_refuted.

Theorem torn_create_database_refuted :
  exists sch, existsb is_err (done (nth 2 (snd (run_all true sch [setup; [CreateDb (lit "DBX")]; [CreateTable TX (Some (lit "c"))]])) (mk_sess []))) = true /\
              klook (tbls (fst (run_all true sch [setup; [CreateDb (lit "DBX")]; [CreateTable TX (Some (lit "c"))]]))) TX = Some [] /\
  existsb is_err (done (nth 2 (snd (run_all true [0; 0; 0; 0; 0; 0; 0; 0; 1; 1; 2; 2]%nat [setup; [CreateDb (lit "DBX")]; [CreateTable TX (Some (lit "c"))]])) (mk_sess []))) = false.
Proof. exists [0; 0; 0; 0; 0; 0; 0; 0; 1; 2; 2; 1]%nat. vm_compute. repeat split. Qed.
Print Assumptions torn_create_database_refuted.

(* MERGE is three engine calls around a TEMPORARY staging table. For EVERY number of sessions, scripts (each MERGE run by the
   session it is written for) and schedule: whenever a session is between the calls of a MERGE, its staging table holds exactly
   the candidates its own first call computed - no interleaving makes it apply or count another session's rows *)
Theorem merge_staging_private : forall lk sch scripts, (forall j ops, nth_error scripts j = Some ops -> script_ok j ops) ->
  forall i s, nth_error (snd (run_sched lk sch (e0, map mk_sess scripts))) i = Some s ->
  forall sid k src rest, todo s = Merge sid k src :: rest -> (pc s = 1 \/ pc s = 2)%nat ->
  exists cs, last s = ARows cs /\ tlook (temps (fst (run_sched lk sch (e0, map mk_sess scripts)))) i = Some cs.
Proof.
  intros lk sch scripts W i s H sid k src rest T.
  destruct (minv_run lk sch _ (minv_init e0 scripts W) i s H) as [_ Pr].
  unfold priv in Pr. rewrite T in Pr. exact Pr.
Qed.
Print Assumptions merge_staging_private.

(* the hypothesis matters: with ONE staging table for both sessions (both MERGEs tagged 1) an interleaving at call granularity
   puts session 2's row into session 1's target; with private tables the same schedule gives the serial result *)
Example merge_shared_refuted :
  klook (tbls (fst (run_all true merge_sched [merge_setup; [Connect DB SC; Merge 1 MT1 MS1]; [Connect DB SC; Merge 1 MT2 MS2]]))) MT1 = Some [2] /\
  klook (tbls (fst (run_all true merge_sched [merge_setup; [Connect DB SC; Merge 1 MT1 MS1]; [Connect DB SC; Merge 2 MT2 MS2]]))) MT1 = Some [1].
Proof. vm_compute. split; reflexivity. Qed.
Print Assumptions merge_shared_refuted.

(* ... and the functional result: from ANY state in which the operations the other sessions still have to run write neither the
   target k nor the source src (e.g. after a set-up session created and filled the tables), under EVERY schedule, at the moment
   session i's MERGE applies its candidates they are exactly the source rows missing from the target as it is now - the call
   leaves the target as the MERGE run alone would: target ++ (source rows not in target) *)
Theorem merge_serial_result : forall lk sch i k src st0, k <> src -> FInv i k src st0 ->
  let st := run_sched lk sch st0 in
  forall s sid rest, nth_error (snd st) i = Some s -> todo s = Merge sid k src :: rest -> pc s = 1%nat ->
  exists tr sr, klook (tbls (fst st)) k = Some tr /\ klook (tbls (fst st)) src = Some sr /\
                klook (tbls (fst (exec (fst st) (ApplyCands i k)))) k = Some (tr ++ cands_of tr sr).
Proof.
  intros lk sch i k src st0 _ F0 st s sid rest H. apply mid_apply. exact (proj2 (finv_run i k src lk sch st0 F0) s H).
Qed.
Print Assumptions merge_serial_result.

(* the same from the empty instance, when the scripts themselves satisfy the condition *)
Theorem merge_serial_result_from_start : forall lk sch scripts i k src, k <> src ->
  (forall j ops, nth_error scripts j = Some ops -> Forall (op_ok i k src j) ops) ->
  let st := run_sched lk sch (e0, map mk_sess scripts) in
  forall s sid rest, nth_error (snd st) i = Some s -> todo s = Merge sid k src :: rest -> pc s = 1%nat ->
  exists tr sr, klook (tbls (fst st)) k = Some tr /\ klook (tbls (fst st)) src = Some sr /\
                klook (tbls (fst (exec (fst st) (ApplyCands i k)))) k = Some (tr ++ cands_of tr sr).
Proof. intros lk sch scripts i k src Kne W. apply merge_serial_result; [exact Kne|apply finv_init; exact W]. Qed.
Print Assumptions merge_serial_result_from_start.

(* the hypothesis is met after the set-up of the merges-private scenario, and a schedule interleaving the two MERGEs reaches the call *)
Example merge_serial_holds_somewhere :
  FInv 1 MT1 MS1 ms_state /\
  let st := run_sched true [1; 1; 1; 1; 2; 2; 2; 2; 1; 2; 2]%nat ms_state in
  (exists s rest, nth_error (snd st) 1 = Some s /\ todo s = Merge 1 MT1 MS1 :: rest /\ pc s = 1%nat) /\
  klook (tbls (fst (exec (fst st) (ApplyCands 1 MT1)))) MT1 = Some [7; 1].
Proof. split; [exact ms_state_finv|exact merge_serial_nonvacuous_l]. Qed.
Print Assumptions merge_serial_holds_somewhere.
