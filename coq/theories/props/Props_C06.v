(* C06 - cursor.description matches the result of every executed statement. *)
From FS Require Import Sexp Types TypesProofs.

(* the metadata table agrees with the Python values fetched (FIXED scale 0 <-> int, scale > 0 <-> Decimal,
   REAL <-> float, TEXT/VARIANT <-> str, ...), for every mapped type except DECIMAL(p,0) *)
Theorem meta_consistent_partial : forall t m k, sf_meta t = Some m -> py_kind t = Some k -> dom t = true ->
  expected_py m = k.
Proof.
  intros t m k Hm Hk D. destruct t; try discriminate; injection Hm as <-; injection Hk as <-; try reflexivity.
  apply negb_true_iff in D. unfold expected_py. cbn. rewrite D. reflexivity.
Qed.
Print Assumptions meta_consistent_partial.

(* the full statement is false of the faithful model: a NUMBER(p,0) column is described as FIXED scale 0
   (int) but fetched as Decimal *)
Theorem fixed0_refuted : exists t m k, sf_meta t = Some m /\ py_kind t = Some k /\ expected_py m <> k.
Proof. exists (DDecimal 10 0), (mk Fixed (Some 10) (Some 0) None), PDecimal. cbn. repeat split. discriminate. Qed.
Print Assumptions fixed0_refuted.

Theorem meta_total_on_fetchable : forall t, (exists k, py_kind t = Some k) <-> (exists m, sf_meta t = Some m).
Proof. intros t. destruct t; cbn; split; intros [x H]; try discriminate; eauto. Qed.
Print Assumptions meta_total_on_fetchable.

(* describe answers with exactly one entry per result column, in the result's order, under the column's name *)
Theorem one_entry_per_column_in_order : forall cols d, describe cols = Some d ->
  map fst d = map fst cols /\ length d = length cols /\
  forall i c, nth_error cols i = Some c -> exists m, sf_meta (snd c) = Some m /\ nth_error d i = Some (fst c, m).
Proof.
  induction cols as [|c cols IH]; intros d H.
  - injection H as <-. repeat split. intros [|i] c Hc; discriminate.
  - rewrite describe_cons in H. destruct (sf_meta (snd c)) as [m|] eqn:E; [|discriminate].
    destruct (describe cols) as [l|]; [|discriminate]. injection H as <-.
    destruct (IH l eq_refl) as (A1 & A2 & A3). cbn. rewrite A1, A2. repeat split.
    intros [|i] c' Hc; cbn in *; [injection Hc as <-; eauto|apply A3, Hc].
Qed.
Print Assumptions one_entry_per_column_in_order.

Theorem describe_fails_iff_unmapped : forall cols, describe cols = None <-> exists c, In c cols /\ sf_meta (snd c) = None.
Proof.
  induction cols as [|c cols IH].
  - split; [discriminate|intros (c & [] & _)].
  - rewrite describe_cons. destruct (sf_meta (snd c)) as [m|] eqn:E; [destruct (describe cols) as [l|]|].
    + split; [discriminate|]. intros (c' & [<-|Hin] & Hn); [congruence|]. enough (Some l = None) by discriminate. apply IH. eauto.
    + split; [|reflexivity]. intros _. destruct (proj1 IH eq_refl) as (c' & Hin & Hn). exists c'. cbn. auto.
    + split; [|reflexivity]. intros _. exists c. cbn. auto.
Qed.
Print Assumptions describe_fails_iff_unmapped.

Example types_hold_somewhere :
  describe [(lit "A", DBigint); (lit "b c", DDecimal 10 2); (lit "A", DTimestampTz)] =
    Some [(lit "A", mk Fixed (Some 38) (Some 0) None); (lit "b c", mk Fixed (Some 10) (Some 2) None);
          (lit "A", mk TsTz (Some 0) (Some 9) None)] /\
  describe [(lit "S", DOther 1)] = None.
Proof. exact types_nonvacuous. Qed.
Print Assumptions types_hold_somewhere.

(* sf_meta, the function all theorems above speak about, is what types.py's dict + if/elif chain compute: both are held as data
   (table, meta_rules) that generated theorems (table_matches_source, meta_rules_match_source) compare with the source on every run *)
Theorem sf_meta_by_rules : forall t, sf_meta_rules t = sf_meta t.
Proof. intros t. destruct t; vm_compute; reflexivity. Qed.
Print Assumptions sf_meta_by_rules.
