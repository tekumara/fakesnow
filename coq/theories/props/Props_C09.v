(* C09 - metadata views always describe exactly the current user objects.
   *_fake : what information_schema / DESCRIBE answer = DuckDB's live catalog joined with fakesnow's side tables
   (comments, VARCHAR lengths); *_spec : what the user most recently declared for the CURRENT incarnation of each
   table (what Snowflake reports). Full statement: they agree at every point of every DDL history.
   False outside dom (the *_refuted witnesses = known findings); proved on dom = histories of CREATE [OR REPLACE]
   TABLE, DROP TABLE, DROP SCHEMA, ADD / DROP / RENAME COLUMN, RENAME TO (after fix 6836b10) and comments on existing
   tables - including any re-use of table and column names. Outside dom: CLONE / CTAS and comments on missing tables. *)
From FS Require Import Sexp Types Meta MetaProofs.

Theorem metadata_exact_partial : forall h, dom h = true -> forall k, length k = 3%nat ->
  comment_fake (run h) k = comment_spec (run h) k /\
  (forall c, len_fake (run h) k c = len_spec (run h) k c) /\
  describe_fake (run h) k = describe_spec (run h) k.
Proof. intros h D. apply answers_exact, inv_run, D. Qed.
Print Assumptions metadata_exact_partial.

(* the same with BEGIN / COMMIT / ROLLBACK anywhere in the history (one session; no BEGIN inside a transaction) *)
Theorem metadata_exact_tx_partial : forall h, tdom h = true -> forall k, length k = 3%nat ->
  comment_fake (cur (trun h)) k = comment_spec (cur (trun h)) k /\
  (forall c, len_fake (cur (trun h)) k c = len_spec (cur (trun h)) k c) /\
  describe_fake (cur (trun h)) k = describe_spec (cur (trun h)) k.
Proof. intros h D. apply answers_exact. exact (proj1 (tinv_run h D)). Qed.
Print Assumptions metadata_exact_tx_partial.

(* ROLLBACK restores exactly the state at BEGIN - declarations and side tables alike *)
Theorem tx_rollback_restores : forall ts body, saved ts = None ->
  cur (tstep (fold_left tstep (map Stmt body) (tstep ts TBegin)) TRollback) = cur ts.
Proof. intros ts body Hs. cbn [tstep]. rewrite Hs, fold_stmts. reflexivity. Qed.
Print Assumptions tx_rollback_restores.

(* histories without transaction statements are the plain model *)
Theorem trun_embed : forall h, cur (trun (map Stmt h)) = run h /\ tdom (map Stmt h) = dom h.
Proof. intros h. unfold trun. rewrite fold_stmts. split; [reflexivity|apply tdom_stmts]. Qed.
Print Assumptions trun_embed.

(* "at every point of any DDL history": dom is prefix-closed, so the theorem applies after every statement *)
Theorem every_prefix : forall h1 h2, dom (h1 ++ h2) = true -> dom h1 = true.
Proof. intros h1 h2 D. unfold dom in D. rewrite dom_from_app in D. apply andb_true_iff in D. apply D. Qed.
Print Assumptions every_prefix.

(* "nothing dropped or replaced": a name that is not live has no comment and no lengths left behind *)
Theorem dropped_leave_nothing : forall h, dom h = true -> forall k c, length k = 3%nat -> lookup (live (run h)) k = None ->
  comment_fake (run h) k = None /\ len_fake (run h) k c = None.
Proof.
  intros h D k c Hk L. destruct (metadata_exact_partial h D k Hk) as (A & B & _).
  rewrite A, B. unfold comment_spec, len_spec. rewrite L. split; reflexivity.
Qed.
Print Assumptions dropped_leave_nothing.

Theorem clone_refuted : exists h k, describe_fake (run h) k <> describe_spec (run h) k.
Proof. exists [Create false (K "C1") [vc "V" (Some 7)] None; Clone (K "C2") (K "C1")], (K "C2"). vm_compute. discriminate. Qed.
Print Assumptions clone_refuted.

Theorem comment_on_missing_refuted : exists h k, comment_fake (run h) k <> comment_spec (run h) k.
Proof. exists [SetComment (K "T9") (lit "x"); Create false (K "T9") [ic "A"] None], (K "T9"). vm_compute. discriminate. Qed.
Print Assumptions comment_on_missing_refuted.

Example meta_holds_somewhere : dom ex_h = true /\
  comment_fake (run ex_h) (K "T2") = Some (lit "last") /\
  describe_fake (run ex_h) (K "T2") = Some [(lit "E", inl 3); (lit "D", inr 1)] /\
  len_fake (run ex_h) (K "T2") (lit "D") = None /\
  comment_fake (run ex_h) (K "T1") = None /\
  describe_fake (run ex_h) (K "T1") = Some [(lit "E", inl 16777216)] /\
  comment_fake (run ex_h) [lit "DB1"; lit "S2"; lit "T1"] = None /\
  describe_fake (run ex_h) [lit "DB1"; lit "S2"; lit "T1"] = Some [(lit "B", inl 16777216)].
Proof. vm_compute. repeat split. Qed.
Print Assumptions meta_holds_somewhere.

Example meta_tx_holds_somewhere : tdom ex_th = true /\ cur (trun ex_th) = run ex_h.
Proof. vm_compute. split; reflexivity. Qed.
Print Assumptions meta_tx_holds_somewhere.

(* "with Snowflake type names, precision and scale ... agree with each other": for every DuckDB column type a Snowflake
   statement can produce, the name / precision / scale that information_schema.columns and DESCRIBE TABLE compute (the CASE arms
   of the view _fs_columns_snowflake, tied to info_schema.py by the generated theorem view_arms_match_source) are those of
   cursor.description (Types.sf_meta, tied to types.py by table_matches_source) *)
Theorem info_name_agrees_partial : forall t m, sf_meta t = Some m -> column_dom t = true -> info_name t = Some (sf_name (kind m)).
Proof. intros t m H D. destruct t; try discriminate; injection H as <-; vm_compute; reflexivity. Qed.
Print Assumptions info_name_agrees_partial.

Theorem info_precision_agrees_partial : forall t m, sf_meta t = Some m -> column_dom t = true -> kind m = Fixed ->
  info_prec t = precision m /\ info_scale t = scale m.
Proof. intros t m H D F. destruct t; try discriminate; injection H as <-; try discriminate; vm_compute; split; reflexivity. Qed.
Print Assumptions info_precision_agrees_partial.

Theorem info_float_has_no_precision : info_prec DDouble = None /\ info_scale DDouble = None.
Proof. vm_compute. split; reflexivity. Qed.
Print Assumptions info_float_has_no_precision.

(* a type with no arm in the view keeps DuckDB's own name: the statement is false outside column_dom (no Snowflake statement
   produces a TIMESTAMP_NS column) *)
Theorem info_timestamp_ns_refuted : exists t m, sf_meta t = Some m /\ info_name t <> Some (sf_name (kind m)).
Proof. exists DTimestampNs, (mk TsNtz (Some 0) (Some 9) None). split; [reflexivity|]. vm_compute. discriminate. Qed.
Print Assumptions info_timestamp_ns_refuted.
