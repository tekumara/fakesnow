(* C03 - names resolve against each connection's own current database and schema. *)
From FS Require Import Sexp Ctx CtxProofs.

(* coherence (what conn.database/conn.schema report = what the engine resolves names against and
   what CURRENT_DATABASE()/CURRENT_SCHEMA() return) is an invariant of EVERY multi-connection history
   whose steps are inside `dom` *)
Theorem coh_reachable_partial : forall h w, (forall k, In k (conns w) -> Coh k) -> all_dom w h = true ->
  forall k, In k (conns (final w h)) -> Coh k.
Proof.
  induction h as [|[c o] h IH]; intros w All D; [exact All|].
  apply andb_true_iff in D as [D1 D2]. apply IH; [apply coh_step; assumption|exact D2].
Qed.
Print Assumptions coh_reachable_partial.

(* full statement (no `dom`) is false of the faithful model: *)
Theorem coh_refuted_use_database :
  let w := {| cat := k0; conns := [c0] |} in
  exists k, In k (conns (fst (step w 0 (UseDb (lit "DB2"))))) /\ ~ Coh k.
Proof. exact CtxProofs.coh_refuted_use_database. Qed.
Print Assumptions coh_refuted_use_database.
Theorem coh_refuted_drop_current_schema :
  let w := {| cat := k0; conns := [c0] |} in
  exists k, In k (conns (fst (step w 0 (DropSchema None (lit "S1"))))) /\ ~ Coh k.
Proof. exact CtxProofs.coh_refuted_drop_current_schema. Qed.
Print Assumptions coh_refuted_drop_current_schema.

(* under coherence an unqualified / schema-qualified name denotes exactly what the fully qualified
   name built from the reported context denotes - same outcome, same new world - for queries/DML,
   CREATE and DROP; and CURRENT_DATABASE()/CURRENT_SCHEMA() report that context *)
Theorem resolve_coherent : forall w ci c kind d s t, cget (conns w) ci = Some c -> Coh c ->
  dset c = true -> cdb c = Some d ->
  (forall s', step w ci (with_q kind (Q2 s' t)) = step w ci (with_q kind (Q3 d s' t))) /\
  (sset c = true -> csch c = Some s -> step w ci (with_q kind (Q1 t)) = step w ci (with_q kind (Q3 d s t))) /\
  (sset c = true -> csch c = Some s -> snd (step w ci Current) = RCtx d s).
Proof.
  intros w ci c kind d s t G [C1 C2] Ds Cd. assert (Ed : edb c = d) by (apply C1 in Ds; congruence).
  unfold step. rewrite G. repeat split.
  - intros s'. rewrite !needs_with_q. cbn [fst snd]. rewrite Ds. apply exec_locate. cbn [locate]. congruence.
  - intros Ss Cs. destruct (C2 Ss) as [_ Es]. rewrite !needs_with_q. cbn [fst snd]. rewrite Ds, Ss.
    apply exec_locate. cbn [locate]. congruence.
  - intros Ss Cs. destruct (C2 Ss) as [_ Es]. cbn. congruence.
Qed.
Print Assumptions resolve_coherent.

(* 90105 / 90106 are raised exactly when the statement needs a current database / schema and the
   session has none - and then nothing changes *)
Theorem guards_exact : forall w ci c o, cget (conns w) ci = Some c ->
  (snd (step w ci o) = RErr 90105 <-> (fst (needs o) = true /\ dset c = false)) /\
  (snd (step w ci o) = RErr 90106 <-> (~ (fst (needs o) = true /\ dset c = false) /\ snd (needs o) = true /\ sset c = false)) /\
  ((fst (needs o) = true /\ dset c = false) \/ (snd (needs o) = true /\ sset c = false) -> fst (step w ci o) = w).
Proof.
  intros w ci c o G. unfold step. rewrite G.
  (* the two conditions, written as the tests that step makes *)
  rewrite <- (negb_true_iff (dset c)), <- (negb_true_iff (sset c)), <- !andb_true_iff.
  destruct (fst (needs o) && negb (dset c)); [|destruct (snd (needs o) && negb (sset c))]; cbn [fst snd];
    [intuition congruence..|].
  (* past both guards: the engine's codes are neither 90105 nor 90106 *)
  destruct (exec w ci c o) as [w' r] eqn:E. cbn [fst snd].
  assert (r <> RErr 90105 /\ r <> RErr 90106) as [X1 X2]
    by (split; intros ->; apply exec_err in E as [_ [?|?]]; discriminate).
  intuition congruence.
Qed.
Print Assumptions guards_exact.

(* a statement on one connection leaves every other connection's context alone *)
Theorem context_frame : forall w ci cj o, ci <> cj -> cget (conns (fst (step w ci o))) cj = cget (conns w) cj.
Proof.
  intros w ci cj o N. destruct (step_cases w ci o) as [[e ->]|(c & _ & ->)]; [reflexivity|].
  destruct (exec_conns w ci c o) as [-> | ->]; [reflexivity|apply cget_cset_other, N].
Qed.
Print Assumptions context_frame.

(* the catalog is shared: a table created through one connection is found by every connection *)
Theorem objects_shared : forall w ci c q w', cget (conns w) ci = Some c ->
  step w ci (CreateTable q) = (w', RUnit) ->
  let '(d, s, t) := locate c q in
  forall cj k, cget (conns w') cj = Some k -> snd (step w' cj (Select (Q3 d s t))) = RTable d s t.
Proof.
  intros w ci c q w' G. destruct (step_cases w ci (CreateTable q)) as [[e ->]|(c' & G' & ->)]; [discriminate|].
  assert (c' = c) as -> by congruence. cbn [exec]. destruct (locate c q) as [[d s] t].
  destruct (e_create_table (cat w) d s t) as [k'|] eqn:E; [|discriminate]. intros [= <-] cj k Gj.
  unfold step. rewrite Gj. apply (e_create_table_lookup _ _ _ _ _ E).
Qed.
Print Assumptions objects_shared.

Example ctx_holds_somewhere :
  let w := {| cat := k0; conns := [c0; cnone] |} in
  let h := [(0, UseSchema None (lit "S2")); (1, UseSchema (Some (lit "DB2")) (lit "S1")); (0, CreateTable (Q1 (lit "U")));
            (1, Select (Q3 (lit "DB1") (lit "S2") (lit "U"))); (1, CreateSchema None (lit "S3")); (0, UseSchema (Some (lit "DB2")) (lit "S3"))]%nat in
  all_dom w h = true /\ Coh c0 /\ Coh cnone /\
  snd (step (final w h) 0 Current) = RCtx (lit "DB2") (lit "S3") /\
  snd (step w 1 (Select (Q1 (lit "T")))) = RErr 90105.
Proof. exact ctx_nonvacuous. Qed.
Print Assumptions ctx_holds_somewhere.

(* "set at connect": a NEW session opened at any point of any history of the instance - after other sessions created, used
   or dropped anything - has the database and schema it asked for: they exist, they are the engine's current ones, unqualified
   names resolve there, and no other session's context changed *)
Theorem reconnect_sets_context : forall w ci c d s, cget (conns w) ci = Some c ->
  let w' := fst (step w ci (Reconnect d s)) in
  e_set_schema (cat w') d s = None /\ snd (step w' ci Current) = RCtx d s /\
  (forall t, e_lookup (cat w) d s t = RTable d s t -> snd (step w' ci (Select (Q1 t))) = RTable d s t) /\
  (forall k, In k (conns w') -> k = {| cdb := Some d; csch := Some s; dset := true; sset := true; edb := d; esch := s |} \/ In k (conns w)).
Proof.
  intros w ci c d s G. rewrite (step_reconnect _ _ _ _ _ G). cbn [fst cat conns].
  unfold step. cbn [conns]. rewrite (cget_cset_same _ _ _ _ G).
  split; [apply ensure_exists|]. split; [reflexivity|]. split; [|apply in_cset].
  (* a table found there before: database and schema existed, so the catalog is the same *)
  intros t Ht. cbn. rewrite (ensure_id _ _ _ (e_lookup_exists _ _ _ _ Ht)). exact Ht.
Qed.
Print Assumptions reconnect_sets_context.
