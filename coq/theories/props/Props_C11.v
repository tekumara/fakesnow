(* C11 - VARIANT/OBJECT/ARRAY values behave as JSON documents. *)
From FS Require Import Sexp Json JsonProofs.

(* path access: for EVERY document and EVERY path of ANY depth whose keys are unambiguous in the path text (dom_path:
   unquoted/bracket keys are non-empty and contain none of . [ and the double quote; quoted keys contain no double quote)
   DuckDB reads back exactly the steps sqlglot wrote, hence the rewritten access is navigation of the document *)
Theorem path_roundtrip : forall p, dom_path p = true -> parse_path (render_path p) = Some p.
Proof.
  (* parse_path drops the '$' and gives parse_steps one more unit of fuel than there are characters *)
  intros p D. apply parse_render; [|exact D]. apply le_n_S, render_length.
Qed.
Print Assumptions path_roundtrip.

Theorem path_correct_partial : forall d p, dom_path p = true -> fake_extract d p = Some (navigate d p).
Proof. intros d p D. unfold fake_extract. rewrite path_roundtrip by exact D. reflexivity. Qed.
Print Assumptions path_correct_partial.

(* a bracket key containing a dot is split in two *)
Theorem path_dot_refuted : exists d p, fake_extract d p <> Some (navigate d p).
Proof. exists (JObj [(lit "k.z", JNum 2)]), [KeyU (lit "k.z")]. vm_compute. discriminate. Qed.
Print Assumptions path_dot_refuted.

(* extraction of an extraction (f.value:c, nested GET_PATH) is extraction along the concatenated path *)
Theorem navigate_app : forall d p q, navigate d (p ++ q) = match navigate d p with Some d' => navigate d' q | None => None end.
Proof. intros d p q. revert d. induction p as [|st p IH]; intros d; cbn; [reflexivity|]. destruct (get1 d st); [apply IH|reflexivity]. Qed.
Print Assumptions navigate_app.

(* missing paths and non-matching kinds give NULL under every cast *)
Theorem missing_is_null : forall d p, navigate d p = None ->
  as_json (navigate d p) = VNull /\ as_text (navigate d p) = VNull /\ as_int (navigate d p) = VNull /\ as_bool (navigate d p) = VNull.
Proof. intros d p H. rewrite H. repeat split. Qed.
Print Assumptions missing_is_null.

Theorem wrong_kind_is_missing : forall d st, (forall l, d <> JObj l) -> (forall l, d <> JArr l) -> get1 d st = None.
Proof. intros d st H1 H2. destruct d as [| | | |l|l]; try (destruct st; reflexivity); [destruct (H2 l)|destruct (H1 l)]; reflexivity. Qed.
Print Assumptions wrong_kind_is_missing.

(* extracted strings lose their JSON quotes exactly when converted to text *)
Theorem text_strips_quotes_iff_string : forall j, j <> JNull ->
  (forall s, j = JStr s -> as_text (Some j) = VText s /\ as_json (Some j) = VJson (JStr s)) /\
  ((forall s, j <> JStr s) -> as_text (Some j) = VJson j /\ as_json (Some j) = VJson j).
Proof.
  intros j Hn. split.
  - intros s ->. split; reflexivity.
  - intros Hs. destruct j as [| | |s| |]; try (split; reflexivity); [contradiction|]. destruct (Hs s). reflexivity.
Qed.
Print Assumptions text_strips_quotes_iff_string.

Theorem array_size_partial : forall l, l <> [] -> array_size_fake (Some (JArr l)) = array_size_spec (Some (JArr l)).
Proof. (* Z.of_nat (S _) is a Z.pos, and Z.pos _ =? 0 computes to false *) intros [|x l] H; [contradiction|reflexivity]. Qed.
Print Assumptions array_size_partial.

Theorem array_size_empty_refuted : array_size_fake (Some (JArr [])) <> array_size_spec (Some (JArr [])).
Proof. discriminate. Qed.
Print Assumptions array_size_empty_refuted.

Theorem array_size_non_array : forall o, (forall l, o <> Some (JArr l)) -> array_size_fake o = None /\ array_size_spec o = None.
Proof. intros o H. destruct o as [[| | | |l|]|]; try (split; reflexivity). destruct (H l). reflexivity. Qed.
Print Assumptions array_size_non_array.

(* OBJECT_CONSTRUCT drops NULL-valued pairs: proved when every NULL is written as the NULL keyword; a NULL that arrives
   as a column or expression value is kept as "k":null *)
Theorem object_construct_partial : forall pairs, oc_dom pairs = true -> oc_fake pairs = oc_spec pairs.
Proof.
  intros pairs D. unfold oc_fake, oc_spec. f_equal. induction pairs as [|[k a] pairs IH]; cbn; [reflexivity|].
  cbn in D. apply andb_true_iff in D as [D1 D2]. rewrite IH by exact D2.
  destruct a as [j| |[j|]]; try reflexivity. discriminate.
Qed.
Print Assumptions object_construct_partial.

Theorem object_construct_refuted : exists pairs, oc_fake pairs <> oc_spec pairs.
Proof. exists [(lit "a", OLit (JNum 1)); (lit "b", OExpr None)]. vm_compute. discriminate. Qed.
Print Assumptions object_construct_refuted.

(* FLATTEN yields every element once, in order; anything but an array yields no rows *)
Theorem flatten_each_once : forall l, flatten (Some (JArr l)) = Some l.
Proof. reflexivity. Qed.
Print Assumptions flatten_each_once.

Example json_holds_somewhere :
  dom_path [KeyU (lit "a"); KeyU (lit "b"); Idx 1; KeyQ (lit "c")] = true /\
  fake_extract ex_doc [KeyU (lit "a"); KeyU (lit "b"); Idx 1; KeyQ (lit "c")] = Some (Some (JStr (lit "x y"))) /\
  fake_extract ex_doc [KeyQ (lit "k y")] = Some (Some (JNum 1)) /\
  fake_extract ex_doc [KeyU (lit "a"); KeyU (lit "zz"); Idx 0] = Some None /\
  as_text (navigate ex_doc [KeyU (lit "k")]) = VText (lit "top").
Proof. vm_compute. repeat split. Qed.
Print Assumptions json_holds_somewhere.
