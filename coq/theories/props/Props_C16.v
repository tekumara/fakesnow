(* C16 - execute_string equals one-by-one execution; nop_regexes only no-op matches. *)
From FS Require Import Sexp Codec CodecProofs Split SplitProofs.

(* cutting the text `s1; s2; ... sn;` gives back exactly s1 ... sn, for ALL statements made of plain
   text and string literals with ARBITRARY content (semicolons, quotes, backslashes, comment markers,
   newlines, $$ inside the literal never cut or end it) *)
Theorem split_join : forall stmts, forallb (forallb chunk_ok) stmts = true ->
  split (join stmts) = Some (map render stmts ++ [[]]).
Proof.
  intros stmts Ok. unfold split, join. rewrite <- (map_map render (fun t => t ++ [59])), scan_joined; [reflexivity|].
  intros t I. apply in_map_iff in I as (st & <- & I). exact (keeps_stmt st (proj1 (forallb_forall _ _) Ok st I)).
Qed.
Print Assumptions split_join.

(* the literal that execute_string re-renders reads back as the same string *)
Theorem rerender_literal : forall s rest, starts_q rest = false -> sf_lex (sf_gen s ++ rest) = Some (s, rest).
Proof. exact (sf_lex_spelled sf_gen_c sf_gen_c_spells). Qed.
Print Assumptions rerender_literal.

(* for ANY executor, pattern matcher, pattern set, world and statement *)
Theorem nop_exact : forall world stmt result pat (exec : world -> stmt -> world * option result)
  (matches : pat -> stmt -> bool) (success : result) pats w s,
  (exists p, In p pats /\ matches p s = true) ->
  exec_nop world stmt result pat exec matches success pats w s = (w, Some success).
Proof.
  intros world stmt result pat exec matches success pats w s H. unfold exec_nop.
  rewrite (proj2 (existsb_exists _ pats) H). reflexivity.
Qed.
Print Assumptions nop_exact.

Theorem nop_transparent : forall world stmt result pat (exec : world -> stmt -> world * option result)
  (matches : pat -> stmt -> bool) (success : result) pats w s,
  (forall p, In p pats -> matches p s = false) ->
  exec_nop world stmt result pat exec matches success pats w s = exec w s.
Proof.
  intros world stmt result pat exec matches success pats w s H. unfold exec_nop.
  destruct (existsb _ pats) eqn:E; [|reflexivity].
  apply existsb_exists in E as (p & I & M). rewrite (H p I) in M. discriminate M.
Qed.
Print Assumptions nop_transparent.

(* for ANY executor, statement type and pattern matcher: the final state and the results of execute_string are those of
   running the statements one after another, each through the nop filter, up to the first that fails *)
Theorem exec_string_is_fold : forall world stmt result pat (exec : world -> stmt -> world * option result)
  (matches : pat -> stmt -> bool) (success : result) pats ss w,
  fst (execute_string world stmt result pat exec matches success pats w ss) =
  one_by_one world stmt result pat exec matches success pats w ss.
Proof.
  intros world stmt result pat exec matches success pats. induction ss as [|s ss IH]; intros w; cbn; [reflexivity|].
  destruct (exec_nop _ _ _ _ _ _ _ pats w s) as [w' [x|]]; [|reflexivity].
  rewrite <- IH. destruct (execute_string _ _ _ _ _ _ _ pats w' ss) as [[wf xs] ok]. reflexivity.
Qed.
Print Assumptions exec_string_is_fold.

(* if the statements of pre all succeed and s then fails, nothing of post is run: the state is the one s left, the results
   are those of pre, and the flag says failed *)
Theorem stops_at_first_failure : forall world stmt result pat (exec : world -> stmt -> world * option result)
  (matches : pat -> stmt -> bool) (success : result) pats pre s post w,
  snd (execute_string world stmt result pat exec matches success pats w pre) = true ->
  snd (exec_nop world stmt result pat exec matches success pats
         (fst (fst (execute_string world stmt result pat exec matches success pats w pre))) s) = None ->
  execute_string world stmt result pat exec matches success pats w (pre ++ s :: post) =
    (fst (exec_nop world stmt result pat exec matches success pats
            (fst (fst (execute_string world stmt result pat exec matches success pats w pre))) s),
     snd (fst (execute_string world stmt result pat exec matches success pats w pre)), false).
Proof.
  intros world stmt result pat exec matches success pats pre s post w Ok F. rewrite execute_string_app.
  destruct (execute_string _ _ _ _ _ _ _ pats w pre) as [[w1 xs] ok]. cbn [fst snd] in *. subst ok.
  cbn [execute_string]. destruct (exec_nop _ _ _ _ _ _ _ pats w1 s) as [w' [x|]]; [discriminate F|].
  rewrite app_nil_r. reflexivity.
Qed.
Print Assumptions stops_at_first_failure.

Example split_holds_somewhere :
  split (lit "select 'a;b\';c' ; select 2 -- x;y" ++ [10] ++ lit "; select $$q;r$$; /* ; */ select ""i;j""") =
  Some [lit "select 'a;b\';c' "; lit " select 2 -- x;y" ++ [10]; lit " select $$q;r$$"; lit " /* ; */ select ""i;j"""].
Proof. exact split_nonvacuous. Qed.
Print Assumptions split_holds_somewhere.
