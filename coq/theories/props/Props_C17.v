(* C17 - the HTTP server answers exactly like the in-process fake. *)
From FS Require Import Sexp Wire WireProofs.
From Coq Require Import Lia.

(* for EVERY timestamp (any microsecond fraction, negative epochs included): the (epoch, fraction)
   struct the server sends is exact and in range *)
Theorem epoch_fraction_exact : forall t,
  epoch t * 1000000000 + fraction t = 1000 * t /\ 0 <= fraction t < 1000000000.
Proof.
  intros t. rewrite epoch_div, fraction_mod.
  pose proof (Z.div_mod t 1000000). pose proof (Z.mod_pos_bound t 1000000). lia.
Qed.
Print Assumptions epoch_fraction_exact.

Theorem fraction_fits_int32 : forall t, 0 <= fraction t < 2147483648.
Proof. intros t. pose proof (epoch_fraction_exact t). lia. Qed.
Print Assumptions fraction_fits_int32.

(* what the connector decodes is what the engine returned - NULL included *)
Theorem wire_roundtrip_timestamp : forall v, decode_ts_opt (encode_ts v) = v.
Proof. intros [t|]; cbn; [rewrite ts_roundtrip|]; reflexivity. Qed.
Print Assumptions wire_roundtrip_timestamp.

Theorem wire_roundtrip_time : forall us, decode_time (encode_time us) = us.
Proof. intros us. apply Z.div_mul. discriminate. Qed.
Print Assumptions wire_roundtrip_time.

(* server.py reads the token as auth[17:-1]: 17 is the length of `Snowflake Token=` with its opening double quote, 34 is the
   closing one *)
Theorem token_extract : forall prefix tok, length prefix = 17%nat -> extract (prefix ++ tok ++ [34]) = tok.
Proof.
  intros prefix tok H. unfold extract. rewrite <- H, skipn_app, skipn_all, Nat.sub_diag.
  apply removelast_app_single.
Qed.
Print Assumptions token_extract.

(* a request with a missing or unknown token is refused with 401. That to_conn never changes the table
   (server.py: sessions.get) is said by its type in the model, not by these statements: it returns an answer and no srv *)
Theorem unknown_token_refused : forall s a, lookup (sessions s) (extract a) = None -> a <> [] ->
  to_conn s (Some a) = Refused 401 390104.
Proof. intros s [|c a] H N; [contradiction|]. unfold to_conn. rewrite H. reflexivity. Qed.
Print Assumptions unknown_token_refused.

Theorem missing_token_refused : forall s, to_conn s None = Refused 401 390103 /\ to_conn s (Some []) = Refused 401 390103.
Proof. intros s. split; reflexivity. Qed.
Print Assumptions missing_token_refused.

(* logins share data unless they asked for an isolated or path-backed instance *)
Theorem isolated_login_is_alone : forall s k tok, fresh_inv s -> k <> Shared ->
  forall x, In x (sessions s) -> instance x <> next_instance s /\
  lookup (sessions (login s k tok)) tok = Some {| token := tok; instance := next_instance s |}.
Proof.
  intros s k tok [_ I] N x Hx. split; [apply Nat.lt_neq, I, Hx|].
  rewrite lookup_login. destruct k; [contradiction|reflexivity..].
Qed.
Print Assumptions isolated_login_is_alone.

(* the invariant isolated_login_is_alone assumes: every instance number handed out so far is below the next one; it holds of
   the fresh server and every login keeps it *)
Theorem fresh_invariant : fresh_inv srv0 /\ forall s k tok, fresh_inv s -> fresh_inv (login s k tok).
Proof.
  split; [split; cbn; [lia|tauto]|]. intros s k tok [P I].
  destruct k; (split; [cbn; lia|]); intros x [<-|H%I]; cbn; lia.
Qed.
Print Assumptions fresh_invariant.

Example wire_holds_somewhere :
  encode_ts (Some (-1)) = Some (-1, 999999000) /\ decode_ts (-1) 999999000 = -1 /\
  encode_ts (Some 1577836800000009) = Some (1577836800, 9000) /\ encode_ts None = None /\
  extract (lit "Snowflake Token=""abc""") = lit "abc".
Proof. exact wire_nonvacuous. Qed.
Print Assumptions wire_holds_somewhere.
