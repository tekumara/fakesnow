(* C01 - stored values read back unchanged, in the connector's Python types. *)
From FS Require Import Sexp Types Store StoreProofs Dml DmlProofs.

(* for EVERY declared type and EVERY value Snowflake accepts for it (38-digit extremes, full scale,
   0001-01-01 .. 9999-12-31 at microsecond precision, ...) the DuckDB column type it is mapped to can hold
   the value exactly - on `vdom` (integer-family values inside int64) *)
Theorem stored_partial : forall t v, sf_dom t v = true -> vdom t v = true -> duck_dom (map_type t) v = true.
Proof. intros t v H D. rewrite (duck_dom_mapped t v H). exact D. Qed.
Print Assumptions stored_partial.

(* the full statement (without vdom) is false: the integer family is NUMBER(38,0) in Snowflake but int64 here *)
Theorem int_family_refuted : exists v, sf_dom TIntFamily v = true /\ duck_dom (map_type TIntFamily) v = false.
Proof. exists (VNum (2 ^ 63) 0). split; reflexivity. Qed.
Print Assumptions int_family_refuted.

Theorem pykind_partial : forall t, kdom t = true -> py_kind (map_type t) = Some (connector_kind t).
Proof. intros t. apply pykind_mapped. Qed.
Print Assumptions pykind_partial.

Theorem fixed0_pytype_refuted : exists t, py_kind (map_type t) <> Some (connector_kind t).
Proof. exists (TNumber 10 0). rewrite pykind_mapped. discriminate. Qed.
Print Assumptions fixed0_pytype_refuted.

Example store_holds_somewhere :
  sf_dom (TNumber 38 37) (VNum (10 ^ 38 - 1) 37) = true /\ duck_dom (map_type (TNumber 38 37)) (VNum (10 ^ 38 - 1) 37) = true /\
  sf_dom TIntFamily (VNum (2 ^ 63 - 1) 0) = true /\ vdom TIntFamily (VNum (2 ^ 63 - 1) 0) = true /\
  sf_dom TTsNtz (VTs (-62135596800000000)) = true /\ duck_dom (map_type TTsNtz) (VTs (-62135596800000000)) = true.
Proof. exact store_nonvacuous. Qed.
Print Assumptions store_holds_somewhere.

(* "every written row is returned exactly once, and no other row or table changes": over the DML model of C04
   (Dml.v), for ALL databases, targets, column lists and row lists - INSERT appends exactly the written rows after
   the existing ones, INSERT ... SELECT exactly the selected source rows, and every other table is unchanged *)
Theorem written_rows_once : forall d t c rows,
  let d' := fst (engine d (InsertValues t c rows)) in
  tget d' t = tget d t ++ map (place c) rows /\ length (tget d' t) = (length (tget d t) + length rows)%nat.
Proof.
  intros d t c rows. destruct (insert_appends d (InsertValues t c rows) t c rows eq_refl) as (E & _ & Ln). exact (conj E Ln).
Qed.
Print Assumptions written_rows_once.

Theorem copied_rows_once : forall d t c src p,
  let d' := fst (engine d (InsertSelect t c src p)) in
  tget d' t = tget d t ++ map (place c) (filter (holds p) (tget d src)).
Proof. intros d t c src p. exact (proj1 (insert_appends d (InsertSelect t c src p) t c _ eq_refl)). Qed.
Print Assumptions copied_rows_once.

Theorem other_tables_unchanged : forall d s t', norm (target s) <> norm t' -> tget (fst (engine d s)) t' = tget d t'.
Proof. exact engine_frame. Qed.
Print Assumptions other_tables_unchanged.
