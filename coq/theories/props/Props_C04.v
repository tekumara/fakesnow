(* C04 - DML changes exactly the right rows and reports the true affected count. *)
From FS Require Import Sexp Dml DmlProofs.

(* the status row and cursor.rowcount both carry the engine's affected count - zero included *)
Theorem count_reported : forall d s, (forall t, s <> Truncate t) ->
  let n := snd (engine d s) in
  rowcount (snd (fake d s)) = n /\
  (stat (snd (fake d s)) = SInserted n \/ stat (snd (fake d s)) = SUpdated n \/ stat (snd (fake d s)) = SDeleted n) /\
  fst (fake d s) = fst (engine d s).
Proof.
  intros d s NT. unfold fake. destruct (engine d s) as [d' n]. destruct s; cbn; auto. destruct (NT t eq_refl).
Qed.
Print Assumptions count_reported.

(* nothing but the target table changes *)
Theorem bystanders_unchanged : forall d s t', norm (target s) <> norm t' ->
  tget (fst (engine d s)) t' = tget d t'.
Proof. exact engine_frame. Qed.
Print Assumptions bystanders_unchanged.

(* DELETE: exactly the rows whose predicate is TRUE go; the count is their number *)
Theorem delete_exact : forall d t p,
  let d' := fst (engine d (Delete t p)) in let n := snd (engine d (Delete t p)) in
  tget d' t = filter (fun r => negb (holds p r)) (tget d t) /\
  length (tget d t) = (n + length (tget d' t))%nat /\
  filter (holds p) (tget d' t) = [] /\
  (forall r, In r (tget d t) -> holds p r = false -> In r (tget d' t)).
Proof.
  intros d t p. cbn [engine fst snd]. rewrite tget_tset_same. repeat split.
  - (* old = deleted + kept *) apply filter_partition.
  - (* no kept row satisfies p *) apply filter_filter_neg.
  - (* rows p does not hold of stay *) intros r H1 H2. apply filter_In. rewrite H2. auto.
Qed.
Print Assumptions delete_exact.

(* UPDATE: same number of rows, position by position either updated (predicate TRUE) or untouched;
   the count is the number of rows whose predicate is TRUE *)
Theorem update_exact : forall d t sb e p,
  let d' := fst (engine d (Update t sb e p)) in let n := snd (engine d (Update t sb e p)) in
  tget d' t = map (fun r => if holds p r then upd sb e r else r) (tget d t) /\
  length (tget d' t) = length (tget d t) /\
  n = length (filter (holds p) (tget d t)) /\
  (forall r, In r (tget d t) -> holds p r = false -> In r (tget d' t)).
Proof.
  intros d t sb e p. cbn [engine fst snd]. rewrite tget_tset_same. repeat split.
  - (* same number of rows *) apply map_length.
  - (* rows p does not hold of stay *) intros r H1 H2. apply in_map_iff. exists r. rewrite H2. auto.
Qed.
Print Assumptions update_exact.

(* INSERT: the old rows stay, the new ones are appended; the count is their number *)
Theorem insert_exact : forall d t c rows,
  let d' := fst (engine d (InsertValues t c rows)) in let n := snd (engine d (InsertValues t c rows)) in
  tget d' t = tget d t ++ map (place c) rows /\ n = length rows /\
  length (tget d' t) = (length (tget d t) + n)%nat.
Proof. intros d t c rows. exact (insert_appends d (InsertValues t c rows) t c rows eq_refl). Qed.
Print Assumptions insert_exact.

Theorem insert_select_exact : forall d t c src p,
  let d' := fst (engine d (InsertSelect t c src p)) in let n := snd (engine d (InsertSelect t c src p)) in
  tget d' t = tget d t ++ map (place c) (filter (holds p) (tget d src)) /\
  n = length (filter (holds p) (tget d src)) /\
  length (tget d' t) = (length (tget d t) + n)%nat.
Proof. intros d t c src p. exact (insert_appends d (InsertSelect t c src p) t c _ eq_refl). Qed.
Print Assumptions insert_select_exact.

Theorem truncate_exact : forall d t, tget (fst (engine d (Truncate t))) t = [].
Proof. intros d t. apply tget_tset_same. Qed.
Print Assumptions truncate_exact.

(* three-valued logic: a row whose predicate is UNKNOWN is selected neither by p nor by NOT p *)
Theorem unknown_not_selected : forall p r,
  (eval p r = None -> holds p r = false /\ holds (Not p) r = false) /\
  (holds p r = true -> holds (Not p) r = false) /\
  (holds (Not p) r = true <-> eval p r = Some false).
Proof.
  intros p r. unfold holds. cbn [eval]. destruct (eval p r) as [[|]|]; cbn; repeat split; congruence.
Qed.
Print Assumptions unknown_not_selected.

Theorem ddl_status_names_object : forall k i q,
  exists pre post, ddl_status k i q = pre ++ reported_name i q ++ post.
Proof.
  intros k i q. destruct k; cbn [ddl_status]; [eexists _, _; reflexivity ..|]. exists [], (lit " successfully dropped."). reflexivity.
Qed.
Print Assumptions ddl_status_names_object.

Example dml_holds_somewhere :
  let d := ([(Some 1, Some 2); (None, Some 3); (Some 2, None)], [], []) in
  fake d (Update 0 true (Plus true 1) (Not (Eq (Col false) (Const (Some 1))))) =
    (([(Some 1, Some 2); (None, Some 3); (Some 2, None)], [], []), {| stat := SUpdated 1; rowcount := 1 |}) /\
  fake d (Delete 0 (Eq (Col false) (Const None))) = (d, {| stat := SDeleted 0; rowcount := 0 |}) /\
  snd (fake d (Delete 0 (Or (IsNull (Col true)) (Lt (Col false) (Const (Some 2)))))) = {| stat := SDeleted 2; rowcount := 2 |}.
Proof. exact dml_nonvacuous. Qed.
Print Assumptions dml_holds_somewhere.
