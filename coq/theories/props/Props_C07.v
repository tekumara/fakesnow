(* C07 - failures are Snowflake errors with the right codes, and change nothing. *)
From FS Require Import Sexp Ctx CtxProofs Errs ErrsProofs.

(* every reference failure is a Snowflake ProgrammingError with 2003/42S02 or 2043/02000 *)
Theorem reference_failure_code : forall c, is_reference c = true ->
  code_of c = (ProgrammingError, 2003, Some st_42S02) \/ code_of c = (ProgrammingError, 2043, Some st_02000).
Proof. intros c H. destruct c; try discriminate; cbn; auto. Qed.
Print Assumptions reference_failure_code.

Theorem context_failure_code :
  code_of NoDatabase = (ProgrammingError, 90105, Some st_22000) /\
  code_of NoSchema = (ProgrammingError, 90106, Some st_22000) /\
  code_of ClosedConnection = (DatabaseError, 250002, Some st_08003) /\
  fst (fst (code_of UndefinedVariable)) = ProgrammingError.
Proof. repeat split. Qed.
Print Assumptions context_failure_code.

(* in the catalog/context machine (shared with C03): whatever the world, connection and statement, a
   statement that ends in an error leaves catalog and every session context exactly as they were *)
Theorem failure_preserves_world : forall w ci o w' e, step w ci o = (w', RErr e) -> w' = w.
Proof.
  intros w ci o w' e. destruct (step_cases w ci o) as [[e' ->]|(c & _ & ->)]; [congruence|].
  intros H. exact (proj1 (exec_err _ _ _ _ _ _ H)).
Qed.
Print Assumptions failure_preserves_world.

(* ... and the error of a statement that got past the guards is one of the engine's two classes *)
Theorem engine_failure_codes : forall w ci c o w' e, exec w ci c o = (w', RErr e) -> w' = w /\ (e = 2003 \/ e = 2043).
Proof. exact exec_err. Qed.
Print Assumptions engine_failure_codes.

(* cursor.sqlstate shows the state of a failing execute until the next execute resets it: after any
   sequence of executes it is determined by the last one alone *)
Theorem sqlstate_lifecycle : forall es e, sq_run (es ++ [e]) = sq_step None e.
Proof.
  intros es e. unfold sq_run. rewrite fold_left_app.
  reflexivity. (* sq_step does not look at the state it is given *)
Qed.
Print Assumptions sqlstate_lifecycle.

Theorem sqlstate_reset_by_success : forall es, sq_run (es ++ [ExecOk]) = None.
Proof. intros es. apply sqlstate_lifecycle. Qed.
Print Assumptions sqlstate_reset_by_success.

Example errs_hold_somewhere :
  sq_run [ExecOk; ExecRaises UnknownTable] = Some st_42S02 /\
  sq_run [ExecRaises UnknownTable; ExecRaises NoSchema] = Some st_22000 /\
  sq_run [ExecRaises UnknownColumn; ExecOk] = None.
Proof. exact errs_nonvacuous. Qed.
Print Assumptions errs_hold_somewhere.
